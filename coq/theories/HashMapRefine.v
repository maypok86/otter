(* HashMapRefine.v — the sequential hash-table model (HashMap.v) is a finite map: lookups, updates,
   deletions, growth, shrinking and clearing against the list of bindings it iterates (C15). *)
From Otter Require Import Base HashMap HashMapFacts HashMapBytes.
From Coq Require Import ZifyBool ZifyNat Permutation.
Local Open Scope Z_scope.

Definition slot_entries (s : option (Z * Z)) : list (Z * Z) := match s with Some kv => [kv] | None => [] end.
Definition bk_entries (b : bk) : list (Z * Z) := flat_map slot_entries (bslots b).
Definition chain_entries (c : list bk) : list (Z * Z) := flat_map bk_entries c.
Definition trange (tbl : list (list bk)) : list (Z * Z) := flat_map chain_entries tbl.
Definition keys (l : list (Z * Z)) : list Z := map fst l.

Lemma range_eq m : hmap_range m = trange (htbl m).
Proof. reflexivity. Qed.

Lemma chain_entries_cons b c : chain_entries (b :: c) = bk_entries b ++ chain_entries c.
Proof. reflexivity. Qed.

Lemma chain_entries_app c1 c2 : chain_entries (c1 ++ c2) = chain_entries c1 ++ chain_entries c2.
Proof. unfold chain_entries. apply flat_map_app. Qed.

Lemma keys_perm (l l' : list (Z * Z)) : Permutation l l' -> Permutation (keys l) (keys l').
Proof. apply Permutation_map. Qed.

Lemma in_slots_nth (slots : list (option (Z * Z))) k v :
  In (k, v) (flat_map slot_entries slots) <-> exists i, (i < length slots)%nat /\ nth i slots None = Some (k, v).
Proof.
  rewrite in_flat_map. split.
  - intros (s & Hs & Hin). destruct s as [kv|]; [destruct Hin as [->|[]]|destruct Hin].
    apply In_nth. exact Hs.
  - intros (i & Hi & Hn). exists (Some (k, v)). split; [rewrite <- Hn; apply nth_In; exact Hi|left; reflexivity].
Qed.

Lemma NoDup_app_intro {A} (l1 l2 : list A) :
  NoDup l1 -> NoDup l2 -> (forall x, In x l1 -> ~ In x l2) -> NoDup (l1 ++ l2).
Proof.
  induction l1 as [|a l1 IH]; cbn [app]; intros H1 H2 H3; [assumption|].
  inversion H1 as [|? ? Hn Hnd]; subst. constructor.
  - rewrite in_app_iff. intros [H|H]; [contradiction|]. eapply H3; [left; reflexivity|exact H].
  - apply IH; [assumption|assumption|]. intros x Hx. apply H3. right. assumption.
Qed.

Lemma flat_map_upd_perm {A B} (f : A -> list B) (l : list A) i d :
  (i < length l)%nat ->
  exists rest, Permutation (flat_map f l) (f (nth i l d) ++ rest) /\
               forall x, Permutation (flat_map f (upd i x l)) (f x ++ rest).
Proof.
  revert i. induction l as [|a l IH]; intros i Hi; cbn [length] in Hi; [lia|].
  destruct i as [|i].
  - exists (flat_map f l). cbn [upd nth flat_map]. split; [|intros x]; apply Permutation_refl.
  - destruct (IH i ltac:(lia)) as (rest & P1 & P2). exists (f a ++ rest).
    cbn [upd nth flat_map]. split; [|intros x].
    + rewrite P1. apply Permutation_app_swap_app.
    + rewrite P2. apply Permutation_app_swap_app.
Qed.

Lemma bk_entries_upd b i :
  (i < length (bslots b))%nat ->
  exists rest, Permutation (bk_entries b) (slot_entries (nth i (bslots b) None) ++ rest) /\
               forall x meta, Permutation (bk_entries (mkBk meta (upd i x (bslots b)))) (slot_entries x ++ rest).
Proof.
  intros Hi. destruct (flat_map_upd_perm slot_entries (bslots b) i None Hi) as (rest & P1 & P2).
  exists rest. split; [exact P1|]. intros x meta. apply P2.
Qed.

(* the bindings of a table with the one of [key], if any, put first *)
Definition bind (key : Z) (o : option Z) (rest : list (Z * Z)) : list (Z * Z) :=
  match o with Some v => (key, v) :: rest | None => rest end.
Definition res_of (f : option Z -> cres) (o : option Z) : option Z :=
  match f o with CKeep => o | CSet v => Some v | CDel => None end.

Lemma bind_app key o rest l : bind key o rest ++ l = bind key o (rest ++ l).
Proof. destruct o; reflexivity. Qed.

Lemma bind_middle key o rest l : Permutation (l ++ bind key o rest) (bind key o (l ++ rest)).
Proof. destruct o; [symmetry; apply Permutation_middle|reflexivity]. Qed.

Lemma in_bind key o rest k v :
  ~ In key (keys rest) ->
  (In (k, v) (bind key o rest) <-> (k = key /\ o = Some v) \/ (k <> key /\ In (k, v) rest)).
Proof.
  intros Hk. assert (Hr : In (k, v) rest -> k <> key).
  { intros Hin ->. apply Hk. apply in_map_iff. exists (key, v). split; [reflexivity|assumption]. }
  destruct o as [w|]; cbn [bind In]; [|intuition discriminate].
  split; [intros [E|Hin]; [injection E as <- <-|]; tauto|].
  intros [[-> E]|[_ Hin]]; [injection E as <-; left; reflexivity|right; exact Hin].
Qed.

Definition BW (hf : Z -> Z) (b : bk) : Prop :=
  length (bslots b) = 5%nat /\ 0 <= bmeta b < two64 /\
  forall i, 0 <= i < 5 ->
    match nth (Z.to_nat i) (bslots b) None with
    | Some (k, _) => byte (bmeta b) i = h2 (hf k)
    | None => byte (bmeta b) i = 128
    end.

Definition slot_code (hf : Z -> Z) (s : option (Z * Z)) : Z :=
  match s with Some (k, _) => h2 (hf k) | None => emptyMetaSlot end.

Lemma slot_code_range hf s : 0 <= slot_code hf s < 256.
Proof. destruct s as [[k v]|]; cbn [slot_code]; [pose proof (h2_range (hf k))|unfold emptyMetaSlot]; lia. Qed.

Lemma BW_slot hf b i :
  BW hf b -> 0 <= i < 5 -> byte (bmeta b) i = slot_code hf (nth (Z.to_nat i) (bslots b) None).
Proof.
  intros (_ & _ & Hb) Hi. specialize (Hb i Hi).
  destruct (nth (Z.to_nat i) (bslots b) None) as [[k v]|]; exact Hb.
Qed.

Lemma BW_slots_lt hf b i : BW hf b -> 0 <= i < 5 -> (Z.to_nat i < length (bslots b))%nat.
Proof. intros (Hl & _) Hi. rewrite Hl. lia. Qed.

Lemma BW_empty hf : BW hf empty_bk.
Proof.
  split; [reflexivity|]. split; [apply defaultMeta_range|].
  intros i Hi. cbn [empty_bk bslots bmeta].
  assert (nth (Z.to_nat i) [None; None; None; None; None] None = (None : option (Z * Z))) as ->.
  { destruct (Z.to_nat i) as [|[|[|[|[|n]]]]]; try reflexivity. destruct n; reflexivity. }
  apply byte_defaultMeta. lia.
Qed.

Lemma BW_upd hf b i s :
  BW hf b -> 0 <= i < 5 ->
  BW hf (mkBk (setByte (bmeta b) (slot_code hf s) i) (upd (Z.to_nat i) s (bslots b))).
Proof.
  intros (Hl & Hr & Hb) Hi. pose proof (slot_code_range hf s) as Hc.
  split; [cbn [bslots]; rewrite upd_length; exact Hl|].
  split; [apply setByte_range; lia|].
  intros j Hj. cbn [bslots bmeta]. rewrite byte_setByte by lia.
  destruct (Z.eqb_spec j i) as [->|Hne].
  - rewrite nth_upd_same by lia. destruct s as [[k v]|]; reflexivity.
  - rewrite nth_upd_other by lia. apply Hb. assumption.
Qed.

Lemma BW_setval hf b i k old v :
  BW hf b -> 0 <= i < 5 -> nth (Z.to_nat i) (bslots b) None = Some (k, old) ->
  BW hf (mkBk (bmeta b) (upd (Z.to_nat i) (Some (k, v)) (bslots b))).
Proof.
  intros (Hl & Hr & Hb) Hi Hn.
  split; [cbn [bslots]; rewrite upd_length; exact Hl|]. split; [exact Hr|].
  intros j Hj. cbn [bslots bmeta].
  destruct (Z.eq_dec j i) as [->|Hne].
  - rewrite nth_upd_same by lia. specialize (Hb i Hi). rewrite Hn in Hb. exact Hb.
  - rewrite nth_upd_other by lia. apply Hb. assumption.
Qed.

Lemma BW_new hf k v :
  BW hf (mkBk (setByte defaultMeta (h2 (hf k)) 0) [Some (k, v); None; None; None; None]).
Proof. exact (BW_upd hf empty_bk 0 (Some (k, v)) (BW_empty hf) ltac:(lia)). Qed.

Lemma bk_fill hf b i k v :
  BW hf b -> 0 <= i < 5 -> nth (Z.to_nat i) (bslots b) None = None ->
  let b' := mkBk (setByte (bmeta b) (h2 (hf k)) i) (upd (Z.to_nat i) (Some (k, v)) (bslots b)) in
  BW hf b' /\ Permutation (bk_entries b') ((k, v) :: bk_entries b).
Proof.
  intros Hb Hi Hn. split; [exact (BW_upd hf b i (Some (k, v)) Hb Hi)|].
  destruct (bk_entries_upd b (Z.to_nat i) (BW_slots_lt hf b i Hb Hi)) as (rest & P1 & P2).
  rewrite Hn in P1. rewrite P1, P2. reflexivity.
Qed.

Fixpoint scan (slots : list (option (Z * Z))) (key : Z) (idxs : list Z) : option (Z * Z) :=
  match idxs with
  | [] => None
  | i :: rest => match nth (Z.to_nat i) slots None with
                 | Some (k, v) => if k =? key then Some (i, v) else scan slots key rest
                 | None => scan slots key rest
                 end
  end.

Definition marks (b : bk) (h2v : Z) : list Z :=
  marked_indices 8 (Z.land (markZeroBytes (Z.lxor (bmeta b) (broadcast h2v))) metaMask).

Lemma find_in_bucket_scan b h2v key : find_in_bucket b h2v key = scan (bslots b) key (marks b h2v).
Proof.
  unfold find_in_bucket, marks. generalize (marked_indices 8 (Z.land (markZeroBytes (Z.lxor (bmeta b) (broadcast h2v))) metaMask)).
  intros l. induction l as [|i rest IH]; [reflexivity|]. cbn [scan]. rewrite <- IH. reflexivity.
Qed.

Lemma scan_spec slots key L :
  match scan slots key L with
  | Some (i, v) => In i L /\ nth (Z.to_nat i) slots None = Some (key, v)
  | None => forall i v, In i L -> nth (Z.to_nat i) slots None <> Some (key, v)
  end.
Proof.
  induction L as [|j rest IH]; cbn [scan]; [intros i v []|].
  destruct (nth (Z.to_nat j) slots None) as [[k w]|] eqn:E;
    [destruct (Z.eqb_spec k key) as [->|Hne]; [split; [left; reflexivity|exact E]|]|].
  (* slot j holds another key, or nothing: the answer is that of the remaining indices *)
  all: destruct (scan slots key rest) as [[i v]|]; [split; [right|]; apply IH|].
  all: intros i v [<-|Hin]; [rewrite E; congruence|apply IH; exact Hin].
Qed.

Lemma in_marks b h2v i :
  In i (marks b h2v) <->
  0 <= i < 5 /\ Z.testbit (markZeroBytes (Z.lxor (bmeta b) (broadcast h2v))) (8 * i + 7) = true.
Proof. unfold marks. rewrite markedw_mk5. apply in_marked_mk5. Qed.

Lemma marks_contains hf b key i0 v :
  BW hf b -> 0 <= i0 < 5 -> nth (Z.to_nat i0) (bslots b) None = Some (key, v) ->
  In i0 (marks b (h2 (hf key))).
Proof.
  intros Hb Hi Hn. apply in_marks. split; [exact Hi|].
  pose proof (h2_range (hf key)) as Hh.
  apply markZeroBytes_zero_byte; [lia|]. apply byte_xor_match; [lia|lia|].
  rewrite (BW_slot hf b i0 Hb Hi), Hn. reflexivity.
Qed.

Lemma find_spec hf b key :
  BW hf b ->
  match find_in_bucket b (h2 (hf key)) key with
  | Some (i, v) => 0 <= i < 5 /\ nth (Z.to_nat i) (bslots b) None = Some (key, v)
  | None => forall v, ~ In (key, v) (bk_entries b)
  end.
Proof.
  intros Hb. rewrite find_in_bucket_scan.
  pose proof (scan_spec (bslots b) key (marks b (h2 (hf key)))) as Hs.
  destruct (scan (bslots b) key (marks b (h2 (hf key)))) as [[i v]|].
  - destruct Hs as [Hin Hn]. apply in_marks in Hin. split; [apply Hin|exact Hn].
  - intros v Hin. apply in_slots_nth in Hin. destruct Hin as (n & Hlt & Hn).
    rewrite (proj1 Hb) in Hlt. rewrite <- (Nat2Z.id n) in Hn.
    apply (Hs (Z.of_nat n) v); [|exact Hn].
    apply (marks_contains hf b key _ v Hb); [lia|exact Hn].
Qed.

Fixpoint chain_get (c : list bk) (h2v key : Z) : option Z :=
  match c with
  | [] => None
  | b :: c' => match find_in_bucket b h2v key with
               | Some (_, v) => Some v
               | None => chain_get c' h2v key
               end
  end.

Lemma hmap_get_chain hashf m key :
  hmap_get hashf m key =
  chain_get (nth (bucket_index m (hashf (hgen m) key)) (htbl m) []) (h2 (hashf (hgen m) key)) key.
Proof.
  unfold hmap_get. generalize (nth (bucket_index m (hashf (hgen m) key)) (htbl m) []).
  intros c. induction c as [|b c IH]; [reflexivity|]. cbn [chain_get]. rewrite <- IH. reflexivity.
Qed.

Lemma chain_get_spec hf c key :
  Forall (BW hf) c ->
  match chain_get c (h2 (hf key)) key with
  | Some v => In (key, v) (chain_entries c)
  | None => forall v, ~ In (key, v) (chain_entries c)
  end.
Proof.
  induction 1 as [|b c Hb Hc IH]; cbn [chain_get]; [intros v []|].
  pose proof (find_spec hf b key Hb) as Hf.
  destruct (find_in_bucket b (h2 (hf key)) key) as [[i v]|].
  - destruct Hf as [Hi Hn]. apply in_or_app. left.
    apply in_slots_nth. exists (Z.to_nat i). split; [exact (BW_slots_lt hf b i Hb Hi)|exact Hn].
  - destruct (chain_get c (h2 (hf key)) key) as [v|].
    + apply in_or_app. right. exact IH.
    + intros v Hin. apply in_app_or in Hin. destruct Hin as [H|H]; [exact (Hf v H)|exact (IH v H)].
Qed.

Lemma compute_chain_spec hf key f : forall c e,
  Forall (BW hf) c ->
  match compute_chain c (h2 (hf key)) key f e with
  | Some (c', d, sh, o) =>
      exists old rest, o = Some old /\ Permutation (chain_entries c) (bind key (Some old) rest) /\
        Permutation (chain_entries c') (bind key (res_of f (Some old)) rest) /\
        d = (match f (Some old) with CDel => -1 | _ => 0 end) /\ Forall (BW hf) c'
  | None => forall v, ~ In (key, v) (chain_entries c)
  end.
Proof.
  induction c as [|b c IH]; intros e Hbw; cbn [compute_chain]; [intros v []|].
  inversion Hbw as [|? ? Hb Hc]; subst.
  pose proof (find_spec hf b key Hb) as Hf.
  destruct (find_in_bucket b (h2 (hf key)) key) as [[i old]|].
  - destruct Hf as [Hi Hn].
    destruct (bk_entries_upd b (Z.to_nat i) (BW_slots_lt hf b i Hb Hi)) as (rest & P1 & P2).
    rewrite Hn in P1.
    assert (Q1 : Permutation (chain_entries (b :: c)) (bind key (Some old) (rest ++ chain_entries c))).
    { rewrite chain_entries_cons, P1. reflexivity. }
    assert (Q2 : forall x meta, Permutation (chain_entries (mkBk meta (upd (Z.to_nat i) x (bslots b)) :: c))
                                            (slot_entries x ++ rest ++ chain_entries c)).
    { intros x meta. rewrite chain_entries_cons, P2, app_assoc. reflexivity. }
    destruct (f (Some old)) as [|v|] eqn:Ef; exists old, (rest ++ chain_entries c); unfold res_of; rewrite Ef.
    + split; [reflexivity|]. split; [exact Q1|]. split; [exact Q1|]. split; [reflexivity|exact Hbw].
    + split; [reflexivity|]. split; [exact Q1|]. split; [exact (Q2 (Some (key, v)) _)|]. split; [reflexivity|].
      constructor; [exact (BW_setval hf b i key old v Hb Hi Hn)|exact Hc].
    + split; [reflexivity|]. split; [exact Q1|]. split; [exact (Q2 None _)|]. split; [reflexivity|].
      constructor; [exact (BW_upd hf b i None Hb Hi)|exact Hc].
  - set (e' := (e || _)%bool). specialize (IH e' Hc).
    destruct (compute_chain c (h2 (hf key)) key f e') as [[[[c'' d] sh] o]|].
    + destruct IH as (old & rest & Ho & P1 & P2 & Hd & Hbw').
      exists old, (bk_entries b ++ rest). rewrite !chain_entries_cons, P1, P2.
      split; [assumption|]. split; [apply bind_middle|]. split; [apply bind_middle|].
      split; [assumption|constructor; assumption].
    + intros v Hin. apply in_app_or in Hin. destruct Hin as [H|H]; [exact (Hf v H)|exact (IH v H)].
Qed.

Lemma empty_slot_free hf b :
  BW hf b ->
  let emptyw := Z.land (bmeta b) (Z.land defaultMeta metaMask) in
  (emptyw =? 0) = false ->
  let i := firstMarkedByteIndex emptyw in
  0 <= i < 5 /\ nth (Z.to_nat i) (bslots b) None = None.
Proof.
  intros Hb emptyw Hne i. pose proof (first_marked_in emptyw Hne) as Hin. fold i in Hin.
  unfold emptyw in Hin. rewrite emptyw_mk5, in_marked_mk5 in Hin. destruct Hin as [Hi Hbit].
  split; [exact Hi|]. rewrite top_bit_byte, (BW_slot hf b i Hb Hi) in Hbit by lia.
  destruct (nth (Z.to_nat i) (bslots b) None) as [[k v]|]; [|reflexivity].
  cbn [slot_code] in Hbit. rewrite top_bit_small in Hbit by apply h2_range. discriminate Hbit.
Qed.

Lemma insert_first_empty_shape c h2v kv kv' :
  insert_first_empty c h2v kv = None -> insert_first_empty c h2v kv' = None.
Proof.
  induction c as [|b c IH]; cbn [insert_first_empty]; [reflexivity|].
  destruct (Z.land (bmeta b) (Z.land defaultMeta metaMask) =? 0); [|discriminate].
  destruct (insert_first_empty c h2v kv); [discriminate|]. intros _. rewrite IH; reflexivity.
Qed.

Lemma insert_first_empty_spec hf k v : forall c c',
  Forall (BW hf) c -> insert_first_empty c (h2 (hf k)) (k, v) = Some c' ->
  Permutation (chain_entries c') ((k, v) :: chain_entries c) /\ Forall (BW hf) c'.
Proof.
  induction c as [|b c IH]; intros c' Hbw; cbn [insert_first_empty]; [discriminate|].
  inversion Hbw as [|? ? Hb Hc]; subst.
  destruct (Z.land (bmeta b) (Z.land defaultMeta metaMask) =? 0) eqn:E.
  - destruct (insert_first_empty c (h2 (hf k)) (k, v)) as [c''|]; [|discriminate].
    intros H. injection H as <-. destruct (IH c'' Hc eq_refl) as [P Hbw'].
    split; [|constructor; assumption]. rewrite !chain_entries_cons, P. symmetry. apply Permutation_middle.
  - intros H. injection H as <-.
    destruct (empty_slot_free hf b Hb E) as [Hi Hn].
    destruct (bk_fill hf b _ k v Hb Hi Hn) as [Hb' P].
    split; [|constructor; assumption]. rewrite !chain_entries_cons, P. reflexivity.
Qed.

Lemma first_nil_spec (s : list (option (Z * Z))) : forall j i,
  first_nil s j = Some i -> j <= i < j + Z.of_nat (length s) /\ nth (Z.to_nat (i - j)) s None = None.
Proof.
  induction s as [|x s IH]; intros j i; cbn [first_nil]; [discriminate|].
  destruct x as [kv|].
  - intros H. destruct (IH _ _ H) as [H1 H2]. cbn [length]. split; [lia|].
    replace (Z.to_nat (i - j)) with (S (Z.to_nat (i - (j + 1)))) by lia. exact H2.
  - intros H. injection H as <-. cbn [length]. split; [lia|]. replace (Z.to_nat (j - j)) with 0%nat by lia. reflexivity.
Qed.

Lemma append_to_chain_spec hf k v : forall c,
  Forall (BW hf) c ->
  Permutation (chain_entries (append_to_chain c (h2 (hf k)) (k, v))) ((k, v) :: chain_entries c) /\
  Forall (BW hf) (append_to_chain c (h2 (hf k)) (k, v)).
Proof.
  induction c as [|b c IH]; intros Hbw; cbn [append_to_chain].
  - split; [reflexivity|]. constructor; [apply BW_new|constructor].
  - inversion Hbw as [|? ? Hb Hc]; subst.
    destruct (first_nil (bslots b) 0) as [i|] eqn:E.
    + destruct (first_nil_spec _ _ _ E) as [Hi Hn]. rewrite Z.sub_0_r in Hn. rewrite (proj1 Hb) in Hi.
      destruct (bk_fill hf b i k v Hb ltac:(lia) Hn) as [Hb' P].
      split; [|constructor; assumption]. rewrite !chain_entries_cons, P. reflexivity.
    + destruct (IH Hc) as [P Hbw']. split; [|constructor; assumption].
      rewrite !chain_entries_cons, P. symmetry. apply Permutation_middle.
Qed.

Definition idx_of (n : Z) (hash : Z) : nat := Z.to_nat (Z.land (n - 1) (h1 hash)).

Lemma land_le_l a b : 0 <= a -> 0 <= Z.land a b <= a.
Proof.
  intros Ha. split; [apply Z.land_nonneg; left; assumption|].
  assert (E : a - Z.land a b = Z.ldiff a (Z.land a b)).
  { apply Z.sub_nocarry_ldiff. apply Z.bits_inj'. intros n Hn.
    rewrite Z.ldiff_spec, Z.land_spec, Z.bits_0. destruct (Z.testbit a n), (Z.testbit b n); reflexivity. }
  assert (0 <= Z.ldiff a (Z.land a b)) by (apply Z.ldiff_nonneg; left; assumption). lia.
Qed.

Lemma idx_of_lt n hash : 1 <= n -> (idx_of n hash < Z.to_nat n)%nat.
Proof. intros Hn. unfold idx_of. pose proof (land_le_l (n - 1) (h1 hash) ltac:(lia)). lia. Qed.

Lemma bucket_index_idx m hash : bucket_index m hash = idx_of (htlen m) hash.
Proof. reflexivity. Qed.

Definition TOK (hf : Z -> Z) (tbl : list (list bk)) : Prop :=
  (0 < length tbl)%nat /\
  Forall (Forall (BW hf)) tbl /\
  (forall ci k v, (ci < length tbl)%nat -> In (k, v) (chain_entries (nth ci tbl [])) ->
                  idx_of (Z.of_nat (length tbl)) (hf k) = ci) /\
  NoDup (keys (trange tbl)).

Lemma TOK_idx_lt hf tbl k : TOK hf tbl -> (idx_of (Z.of_nat (length tbl)) (hf k) < length tbl)%nat.
Proof. intros (Hlen & _). pose proof (idx_of_lt (Z.of_nat (length tbl)) (hf k) ltac:(lia)). lia. Qed.

Lemma chain_bw hf tbl ci : TOK hf tbl -> (ci < length tbl)%nat -> Forall (BW hf) (nth ci tbl []).
Proof. intros (_ & Hbw & _) Hci. rewrite Forall_forall in Hbw. apply Hbw. apply nth_In. assumption. Qed.

Lemma in_trange tbl k v :
  In (k, v) (trange tbl) <-> exists ci, (ci < length tbl)%nat /\ In (k, v) (chain_entries (nth ci tbl [])).
Proof.
  unfold trange. rewrite in_flat_map. split.
  - intros (c & Hc & Hin). destruct (In_nth _ _ [] Hc) as (ci & Hci & E). exists ci. rewrite E. tauto.
  - intros (ci & Hci & Hin). exists (nth ci tbl []). split; [apply nth_In; assumption|assumption].
Qed.

Lemma TOK_lookup hf tbl k v :
  TOK hf tbl ->
  (In (k, v) (trange tbl) <-> In (k, v) (chain_entries (nth (idx_of (Z.of_nat (length tbl)) (hf k)) tbl []))).
Proof.
  intros Htok. rewrite in_trange. split.
  - destruct Htok as (_ & _ & Hpl & _). intros (ci & Hci & Hin). rewrite (Hpl ci k v Hci Hin). exact Hin.
  - intros Hin. exists (idx_of (Z.of_nat (length tbl)) (hf k)). split; [apply TOK_idx_lt; assumption|exact Hin].
Qed.

(* Replacing the chain of [key] by one that holds the same bindings except for that of [key].
   [R] collects the bindings of other keys: those of the chain and those of the other chains. *)
Lemma table_update hf tbl key c' o o' rest :
  TOK hf tbl ->
  let ci := idx_of (Z.of_nat (length tbl)) (hf key) in
  Permutation (chain_entries (nth ci tbl [])) (bind key o rest) ->
  (o = None -> ~ In key (keys (trange tbl))) ->
  Forall (BW hf) c' -> Permutation (chain_entries c') (bind key o' rest) ->
  exists R, TOK hf (upd ci c' tbl) /\ Permutation (trange tbl) (bind key o R) /\
            Permutation (trange (upd ci c' tbl)) (bind key o' R) /\ ~ In key (keys R).
Proof.
  intros Htok ci PE Habs Hbw' PE'. pose proof (TOK_idx_lt hf tbl key Htok) as Hci. fold ci in Hci.
  destruct Htok as (Hlen & Hbw & Hpl & Hnd).
  destruct (flat_map_upd_perm chain_entries tbl ci [] Hci) as (R0 & P1 & P2).
  assert (Q1 : Permutation (trange tbl) (bind key o (rest ++ R0))).
  { unfold trange. rewrite P1, PE, bind_app. reflexivity. }
  assert (Q2 : Permutation (trange (upd ci c' tbl)) (bind key o' (rest ++ R0))).
  { unfold trange. rewrite P2, PE', bind_app. reflexivity. }
  assert (Hk : NoDup (keys (rest ++ R0)) /\ ~ In key (keys (rest ++ R0))).
  { unfold keys in *. rewrite Q1 in Hnd. destruct o as [w|]; cbn [bind map fst] in Hnd.
    - inversion Hnd; subst. tauto.
    - split; [exact Hnd|]. rewrite <- Q1. apply Habs. reflexivity. }
  exists (rest ++ R0). split; [|tauto].
  split; [rewrite upd_length; assumption|]. split; [apply Forall_upd; assumption|]. split.
  - intros cj k v Hcj Hin. rewrite upd_length in Hcj |- *.
    destruct (Nat.eq_dec cj ci) as [->|Hne]; [|rewrite nth_upd_other in Hin by lia; eapply Hpl; eassumption].
    rewrite nth_upd_same, PE' in Hin by assumption.
    assert (Hin' : k = key \/ In (k, v) rest).
    { destruct o'; cbn [bind In] in Hin; [destruct Hin as [E|Hin]; [injection E as <- _|]|]; tauto. }
    destruct Hin' as [->|Hin']; [reflexivity|].
    apply (Hpl ci k v Hci). rewrite PE. destruct o; [right|]; exact Hin'.
  - unfold keys in *. rewrite Q2. destruct o'; cbn [bind map fst]; [constructor|]; tauto.
Qed.

Lemma nth_repeat_lt {A} (x d : A) k : forall i, (i < k)%nat -> nth i (repeat x k) d = x.
Proof. induction k as [|k IH]; intros i Hi; [lia|]. destruct i; cbn [repeat nth]; [reflexivity|apply IH; lia]. Qed.

Lemma new_table_nth n ci : (ci < Z.to_nat n)%nat -> nth ci (new_table n) [] = [empty_bk].
Proof. intros H. unfold new_table. apply nth_repeat_lt. assumption. Qed.

Lemma new_table_length n : length (new_table n) = Z.to_nat n.
Proof. apply repeat_length. Qed.

Lemma trange_new_table n : trange (new_table n) = [].
Proof.
  unfold new_table, trange. induction (Z.to_nat n) as [|k IH]; [reflexivity|].
  cbn [repeat flat_map]. rewrite IH. reflexivity.
Qed.

Lemma TOK_new_table hf n : 1 <= n -> TOK hf (new_table n).
Proof.
  intros Hn. unfold TOK. rewrite trange_new_table, new_table_length. split; [lia|]. split.
  - unfold new_table. apply Forall_forall. intros c Hc. apply repeat_spec in Hc. subst c.
    constructor; [apply BW_empty|constructor].
  - split; [|constructor]. intros ci k v Hci Hin. rewrite new_table_nth in Hin by assumption. destruct Hin.
Qed.

(* resize: every binding of the old table is re-inserted into a fresh one *)

Definition put (hf : Z -> Z) (n : Z) (dest : list (list bk)) (kv : Z * Z) : list (list bk) :=
  let hash := hf (fst kv) in
  let bidx := Z.to_nat (Z.land (n - 1) (h1 hash)) in
  upd bidx (append_to_chain (nth bidx dest []) (h2 hash) kv) dest.

Lemma fold_left_flat_map {A B C} (g : A -> C -> A) (f : B -> list C) (h : A -> B -> A) :
  (forall a x, h a x = fold_left g (f x) a) -> forall l a, fold_left h l a = fold_left g (flat_map f l) a.
Proof.
  intros H l. induction l as [|x l IH]; intros a; cbn [fold_left flat_map]; [reflexivity|].
  rewrite fold_left_app, <- H. apply IH.
Qed.

Lemma copy_all_fold hashf gen' n old :
  copy_all hashf gen' n old = fold_left (put (hashf gen') n) (trange old) (new_table n).
Proof.
  unfold copy_all, trange. apply fold_left_flat_map. intros dest chain.
  apply fold_left_flat_map. intros dest' b. apply fold_left_flat_map. intros dest'' [[k v]|]; reflexivity.
Qed.

Lemma put_spec hf n dest k v :
  TOK hf dest -> Z.of_nat (length dest) = n -> ~ In k (keys (trange dest)) ->
  TOK hf (put hf n dest (k, v)) /\ Permutation (trange (put hf n dest (k, v))) ((k, v) :: trange dest) /\
  length (put hf n dest (k, v)) = length dest.
Proof.
  intros Htok <- Hnew. unfold put. cbn [fst]. fold (idx_of (Z.of_nat (length dest)) (hf k)).
  set (ci := idx_of (Z.of_nat (length dest)) (hf k)).
  destruct (append_to_chain_spec hf k v (nth ci dest [])) as [P Hbw'].
  { apply chain_bw; [assumption|apply TOK_idx_lt; assumption]. }
  destruct (table_update hf dest k _ None (Some v) _ Htok (Permutation_refl _) (fun _ => Hnew) Hbw' P)
    as (R & Htok' & Q1 & Q2 & _).
  split; [exact Htok'|]. split; [|apply upd_length]. fold ci in Q2. rewrite Q2, Q1. reflexivity.
Qed.

Lemma copy_fold_spec hf n : forall L dest,
  TOK hf dest -> Z.of_nat (length dest) = n -> NoDup (keys (L ++ trange dest)) ->
  TOK hf (fold_left (put hf n) L dest) /\
  Permutation (trange (fold_left (put hf n) L dest)) (L ++ trange dest) /\
  length (fold_left (put hf n) L dest) = length dest.
Proof.
  induction L as [|[k v] L IH]; intros dest Htok Hn Hnd; cbn [fold_left].
  - split; [assumption|]. split; reflexivity.
  - assert (M : Permutation (L ++ (k, v) :: trange dest) (((k, v) :: L) ++ trange dest))
      by (symmetry; apply Permutation_middle).
    destruct (put_spec hf n dest k v Htok Hn) as (Htok1 & P1 & Hl1).
    { unfold keys in *. cbn [app map fst] in Hnd. inversion Hnd as [|? ? Hk _]; subst.
      intros Hin. apply Hk. rewrite map_app. apply in_or_app. right. exact Hin. }
    destruct (IH (put hf n dest (k, v)) Htok1 ltac:(lia)) as (Htok2 & P2 & Hl2).
    { unfold keys in *. rewrite P1, M. exact Hnd. }
    split; [assumption|]. split; [|lia]. rewrite P2, P1. exact M.
Qed.

Lemma copy_all_spec hashf gen' n old :
  1 <= n -> NoDup (keys (trange old)) ->
  TOK (hashf gen') (copy_all hashf gen' n old) /\
  Permutation (trange (copy_all hashf gen' n old)) (trange old) /\
  length (copy_all hashf gen' n old) = Z.to_nat n.
Proof.
  intros Hn Hnd. rewrite copy_all_fold. pose proof (new_table_length n) as Hl.
  destruct (copy_fold_spec (hashf gen') n (trange old) (new_table n) (TOK_new_table _ n Hn) ltac:(lia))
    as (H1 & H2 & H3).
  - rewrite trange_new_table, app_nil_r. exact Hnd.
  - rewrite trange_new_table, app_nil_r in H2. split; [assumption|]. split; [exact H2|lia].
Qed.

Definition HInv (hashf : Z -> Z -> Z) (m : hmap) : Prop :=
  TOK (hashf (hgen m)) (htbl m) /\
  hsize m = Z.of_nat (length (hmap_range m)) /\
  1 <= minlen m /\ exists j, 0 <= j /\ htlen m = minlen m * 2 ^ j.

Lemma HInv_size_nonneg hashf m : HInv hashf m -> 0 <= hsize m.
Proof. intros (_ & -> & _). lia. Qed.

Lemma htlen_pos hashf m : HInv hashf m -> 1 <= htlen m.
Proof. intros ((Hl & _) & _). unfold htlen. lia. Qed.

Lemma HInv_fresh hashf n g : 1 <= n -> HInv hashf (mkHmap (new_table n) 0 g n).
Proof.
  intros Hn. split; [apply TOK_new_table; assumption|].
  split; [rewrite range_eq; cbn [htbl]; rewrite trange_new_table; reflexivity|]. split; [assumption|].
  exists 0. split; [lia|]. unfold htlen. cbn [htbl minlen]. rewrite new_table_length. lia.
Qed.

Lemma HInv_new hashf n : 1 <= n -> HInv hashf (hmap_new n) /\ hmap_range (hmap_new n) = [].
Proof. intros Hn. split; [apply HInv_fresh; assumption|apply trange_new_table]. Qed.

Lemma HInv_copy hashf m n' j' :
  HInv hashf m -> 0 <= j' -> n' = minlen m * 2 ^ j' ->
  let m' := mkHmap (copy_all hashf (hgen m + 1) n' (htbl m)) (hsize m) (hgen m + 1) (minlen m) in
  (HInv hashf m' /\ Permutation (hmap_range m') (hmap_range m)) /\ htlen m' = n'.
Proof.
  intros (Htok & Hsz & Hmin & j & Hj & Hlen) Hj' Hn' m'.
  pose proof Htok as (Hlen0 & _ & _ & Hnd).
  assert (Hp : 0 < 2 ^ j') by (apply Z.pow_pos_nonneg; lia).
  destruct (copy_all_spec hashf (hgen m + 1) n' (htbl m) ltac:(nia) Hnd) as (T & P & L).
  assert (Hl' : htlen m' = n') by (unfold htlen, m'; cbn [htbl]; rewrite L; nia).
  split; [|exact Hl']. split; [|exact P]. split; [exact T|].
  split; [unfold m'; cbn [hsize]; rewrite Hsz; f_equal; apply Permutation_length; symmetry; exact P|].
  split; [assumption|]. exists j'. split; [assumption|]. rewrite Hl'. exact Hn'.
Qed.

Lemma grow_spec hashf m :
  HInv hashf m ->
  let m' := hmap_resize hashf m Grow in
  (HInv hashf m' /\ Permutation (hmap_range m') (hmap_range m)) /\ htlen m' = 2 * htlen m.
Proof.
  intros HI. pose proof HI as (_ & _ & _ & j & Hj & Hlen).
  apply (HInv_copy hashf m (2 * htlen m) (j + 1) HI); [lia|].
  rewrite Hlen, Z.pow_add_r by lia. change (2 ^ 1) with 2. lia.
Qed.

Lemma resize_spec hashf m h :
  HInv hashf m ->
  HInv hashf (hmap_resize hashf m h) /\
  Permutation (hmap_range (hmap_resize hashf m h)) (match h with Clear => [] | _ => hmap_range m end).
Proof.
  intros HI. destruct h; [exact (proj1 (grow_spec hashf m HI))| |]; unfold hmap_resize.
  - (* shrink *)
    pose proof HI as (_ & _ & Hmin & j & Hj & Hlen).
    destruct ((minlen m =? htlen m) || (hsize m >? htlen m * 5 / 128)) eqn:E.
    + split; [assumption|reflexivity].
    + apply orb_false_iff in E. destruct E as [E1 _].
      assert (Hj1 : 1 <= j).
      { destruct (Z.eq_dec j 0) as [->|]; [|lia]. change (2 ^ 0) with 1 in Hlen. lia. }
      eapply proj1, (HInv_copy hashf m (htlen m / 2) (j - 1) HI); [lia|].
      rewrite Hlen. replace j with (j - 1 + 1) at 1 by lia. rewrite Z.pow_add_r by lia. change (2 ^ 1) with 2.
      rewrite Z.mul_assoc. apply Z.div_mul. lia.
  - (* clear *)
    split; [apply HInv_fresh; apply HI|]. rewrite range_eq. cbn [htbl]. rewrite trange_new_table. reflexivity.
Qed.

(* Replacing the chain of [key] as in [table_update]; the size counter moves by as much as the number
   of bindings does (the model clamps it at 0, which never bites). *)
Lemma HInv_update hashf m key c' o o' rest d :
  HInv hashf m ->
  let hf := hashf (hgen m) in
  let ci := idx_of (htlen m) (hf key) in
  Permutation (chain_entries (nth ci (htbl m) [])) (bind key o rest) ->
  (o = None -> ~ In key (keys (hmap_range m))) ->
  Forall (BW hf) c' -> Permutation (chain_entries c') (bind key o' rest) ->
  Z.of_nat (length (bind key o' rest)) = Z.of_nat (length (bind key o rest)) + d ->
  let m' := mkHmap (upd ci c' (htbl m)) (Z.max 0 (hsize m + d)) (hgen m) (minlen m) in
  exists R, HInv hashf m' /\ Permutation (hmap_range m) (bind key o R) /\
            Permutation (hmap_range m') (bind key o' R) /\ ~ In key (keys R).
Proof.
  intros (Htok & Hsz & Hmin & j & Hj & Hlen) hf ci PE Habs Hbw' PE' Hd m'.
  destruct (table_update hf (htbl m) key c' o o' rest Htok PE Habs Hbw' PE') as (R & Htok' & Q1 & Q2 & HR).
  exists R. split; [|tauto].
  split; [exact Htok'|]. split.
  - unfold m', ci, htlen. cbn [hsize]. rewrite Hsz, !range_eq. cbn [htbl].
    rewrite (Permutation_length Q1), (Permutation_length Q2).
    destruct o, o'; cbn [bind length] in *; lia.
  - split; [assumption|]. exists j. split; [assumption|].
    unfold htlen, m' in *. cbn [htbl minlen]. rewrite upd_length. assumption.
Qed.

Theorem get_spec hashf m key :
  HInv hashf m ->
  match hmap_get hashf m key with
  | Some v => In (key, v) (hmap_range m)
  | None => forall v, ~ In (key, v) (hmap_range m)
  end.
Proof.
  intros (Htok & _). rewrite hmap_get_chain, bucket_index_idx, range_eq.
  set (hf := hashf (hgen m)) in *. unfold htlen.
  pose proof (chain_get_spec hf _ key (chain_bw _ _ _ Htok (TOK_idx_lt hf _ key Htok))) as H.
  destruct (chain_get _ (h2 (hf key)) key) as [v|].
  - apply (TOK_lookup hf (htbl m) key v Htok). exact H.
  - intros v Hin. apply (TOK_lookup hf (htbl m) key v Htok) in Hin. exact (H v Hin).
Qed.

Definition final_post (hashf : Z -> Z -> Z) (m : hmap) (key : Z) (f : option Z -> cres)
    (r : hmap * option (option Z)) : Prop :=
  let '(m', seen) := r in
  HInv hashf m' /\
  exists old rest, seen = Some old /\ Permutation (hmap_range m) (bind key old rest) /\
    Permutation (hmap_range m') (bind key (res_of f old) rest) /\ ~ In key (keys rest).

(* one round of Compute's loop: it either grows the table and asks to be run again, or is done *)
Definition once_post (hashf : Z -> Z -> Z) (m : hmap) (key : Z) (f : option Z -> cres)
    (r : hmap * bool * option (option Z)) : Prop :=
  let '(m', retry, seen) := r in
  if retry then
    HInv hashf m' /\ Permutation (hmap_range m') (hmap_range m) /\ htlen m' = 2 * htlen m /\
    hsize m' = hsize m /\ hsize m > htlen m * 5 * 3 / 4
  else final_post hashf m key f (m', seen).

Lemma compute_once_spec hashf m key f :
  HInv hashf m -> once_post hashf m key f (hmap_compute_once hashf m key f).
Proof.
  intros HI. pose proof HI as (Htok & _).
  unfold hmap_compute_once. rewrite bucket_index_idx.
  set (hf := hashf (hgen m)) in *. set (ci := idx_of (htlen m) (hf key)). set (chain := nth ci (htbl m) []).
  assert (Hcbw : Forall (BW hf) chain) by (apply chain_bw; [assumption|apply TOK_idx_lt; assumption]).
  pose proof (compute_chain_spec hf key f chain false Hcbw) as Hcc.
  destruct (compute_chain chain (h2 (hf key)) key f false) as [[[[chain' d] sh] o]|].
  - (* present *)
    destruct Hcc as (old & rest & -> & P1 & P2 & Hd & Hbw').
    destruct (HInv_update hashf m key chain' (Some old) (res_of f (Some old)) rest d HI P1 ltac:(discriminate) Hbw' P2)
      as (R & HI1 & Q1 & Q2 & HR).
    { rewrite Hd. unfold res_of. destruct (f (Some old)); cbn [bind length]; lia. }
    set (m1 := mkHmap (upd ci chain' (htbl m)) (Z.max 0 (hsize m + d)) (hgen m) (minlen m)) in *.
    assert (Hpost : forall m', HInv hashf m' -> Permutation (hmap_range m') (hmap_range m1) ->
                    final_post hashf m key f (m', Some (Some old))).
    { intros m' HI' P'. split; [exact HI'|]. exists (Some old), R. rewrite P'. tauto. }
    destruct sh.
    + apply Hpost; apply (resize_spec hashf m1 Shrink HI1).
    + apply Hpost; [exact HI1|reflexivity].
  - (* absent *)
    assert (Habs : ~ In key (keys (hmap_range m))).
    { intros Hin. apply in_map_iff in Hin. destruct Hin as ([k v] & E & Hin). cbn [fst] in E. subst k.
      apply (TOK_lookup hf (htbl m) key v Htok) in Hin. exact (Hcc v Hin). }
    assert (Hsame : (forall v, f None <> CSet v) -> final_post hashf m key f (m, Some None)).
    { intros Hn. split; [exact HI|]. exists None, (hmap_range m). split; [reflexivity|].
      split; [reflexivity|]. split; [|exact Habs].
      unfold res_of. destruct (f None) as [|v|]; [reflexivity|destruct (Hn v eq_refl)|reflexivity]. }
    assert (Hins : forall chain' v, f None = CSet v -> Forall (BW hf) chain' ->
                   Permutation (chain_entries chain') ((key, v) :: chain_entries chain) ->
                   final_post hashf m key f (mkHmap (upd ci chain' (htbl m)) (hsize m + 1) (hgen m) (minlen m), Some None)).
    { intros chain' v Ef Hbw' P'.
      destruct (HInv_update hashf m key chain' None (Some v) (chain_entries chain) 1 HI (Permutation_refl _)
                  (fun _ => Habs) Hbw' P') as (R & HI1 & Q1 & Q2 & HR).
      { cbn [bind length]. lia. }
      replace (Z.max 0 (hsize m + 1)) with (hsize m + 1) in * by (pose proof (HInv_size_nonneg _ _ HI); lia).
      split; [exact HI1|]. exists None, R. unfold res_of. rewrite Ef. tauto. }
    destruct (insert_first_empty chain (h2 (hf key)) (key, 0)) as [c0|] eqn:E0.
    + destruct (f None) as [|v|] eqn:Ef; try (apply Hsame; discriminate).
      destruct (insert_first_empty chain (h2 (hf key)) (key, v)) as [chain'|] eqn:E1.
      * destruct (insert_first_empty_spec hf key v chain chain' Hcbw E1) as [P' Hbw']. apply (Hins chain' v eq_refl Hbw' P').
      * rewrite (insert_first_empty_shape _ _ _ (key, 0) E1) in E0. discriminate E0.
    + destruct (hsize m >? htlen m * 5 * 3 / 4) eqn:Eg.
      * destruct (grow_spec hashf m HI) as [[HI2 P2] L].
        split; [exact HI2|]. split; [exact P2|]. split; [exact L|]. split; [reflexivity|lia].
      * destruct (f None) as [|v|] eqn:Ef; try (apply Hsame; discriminate).
        apply (Hins (chain ++ [mkBk (setByte defaultMeta (h2 (hf key)) 0) [Some (key, v); None; None; None; None]]) v eq_refl).
        -- apply Forall_app. split; [assumption|]. constructor; [apply BW_new|constructor].
        -- rewrite chain_entries_app. symmetry. apply Permutation_cons_append.
Qed.

Lemma final_post_perm hashf m m0 key f r :
  Permutation (hmap_range m0) (hmap_range m) -> final_post hashf m key f r -> final_post hashf m0 key f r.
Proof.
  destruct r as [m' seen]. intros P (HI & old & rest & Hseen & Q). split; [exact HI|].
  exists old, rest. rewrite P. tauto.
Qed.

Lemma compute_fuel_step hashf key f n m :
  HInv hashf m ->
  (forall m1, HInv hashf m1 -> htlen m1 = 2 * htlen m -> hsize m1 = hsize m -> hsize m > htlen m * 5 * 3 / 4 ->
              final_post hashf m1 key f (hmap_compute_fuel n hashf m1 key f)) ->
  final_post hashf m key f (hmap_compute_fuel (S n) hashf m key f).
Proof.
  intros HI Hretry. cbn [hmap_compute_fuel]. pose proof (compute_once_spec hashf m key f HI) as Hs.
  destruct (hmap_compute_once hashf m key f) as [[m1 retry] seen]. destruct retry; [|exact Hs].
  destruct Hs as (HI1 & P & Hl & Hsz & Hgt). apply (final_post_perm hashf m1); [symmetry; exact P|].
  apply Hretry; assumption.
Qed.

(* each retry doubles the table and keeps the size, so the grow test fails after at most [fuel] of them *)
Lemma compute_fuel_spec hashf key f : forall fuel m,
  HInv hashf m -> hsize m <= 3 * htlen m * 2 ^ Z.of_nat fuel ->
  final_post hashf m key f (hmap_compute_fuel (S fuel) hashf m key f).
Proof.
  induction fuel as [|fuel IH]; intros m HI Hb; apply compute_fuel_step; try assumption;
    intros m1 HI1 Hl Hsz Hgt.
  - exfalso. pose proof (htlen_pos _ _ HI). change (2 ^ Z.of_nat 0) with 1 in Hb.
    assert (3 * htlen m <= htlen m * 5 * 3 / 4) by (apply Z.div_le_lower_bound; lia). lia.
  - apply IH; [exact HI1|]. rewrite Hl, Hsz. rewrite Nat2Z.inj_succ, Z.pow_succ_r in Hb by lia. lia.
Qed.

Theorem compute_spec hashf m key f :
  HInv hashf m -> hsize m <= 2 ^ 63 -> final_post hashf m key f (hmap_compute hashf m key f).
Proof.
  intros HI Hb. unfold hmap_compute. change 64%nat with (S 63).
  apply compute_fuel_spec; [assumption|]. pose proof (htlen_pos _ _ HI).
  change (Z.of_nat 63) with 63. assert (0 < 2 ^ 63) by (apply Z.pow_pos_nonneg; lia). nia.
Qed.

Inductive hop := HGet (k : Z) | HCompute (k : Z) (f : option Z -> cres) | HClear.
Inductive hout := OGet (r : option Z) | OSeen (r : option Z) | OFuel | OUnit.

Definition mstep (hashf : Z -> Z -> Z) (m : hmap) (o : hop) : hmap * hout :=
  match o with
  | HGet k => (m, OGet (hmap_get hashf m k))
  | HCompute k f => let '(m', seen) := hmap_compute hashf m k f in
                    (m', match seen with Some r => OSeen r | None => OFuel end)
  | HClear => (hmap_clear hashf m, OUnit)
  end.

Definition smap := Z -> option Z.
Definition sstep (s : smap) (o : hop) : smap * hout :=
  match o with
  | HGet k => (s, OGet (s k))
  | HCompute k f => ((fun k' => if k' =? k then res_of f (s k) else s k'), OSeen (s k))
  | HClear => ((fun _ => None), OUnit)
  end.

Fixpoint mrun hashf (m : hmap) (ops : list hop) : list hout :=
  match ops with [] => [] | o :: t => let '(m', out) := mstep hashf m o in out :: mrun hashf m' t end.
Fixpoint srun (s : smap) (ops : list hop) : list hout :=
  match ops with [] => [] | o :: t => let '(s', out) := sstep s o in out :: srun s' t end.
Definition mfinal hashf (m : hmap) (ops : list hop) : hmap := fold_left (fun m o => fst (mstep hashf m o)) ops m.
Definition sfinal (s : smap) (ops : list hop) : smap := fold_left (fun s o => fst (sstep s o)) ops s.

Definition Rel (hashf : Z -> Z -> Z) (m : hmap) (s : smap) : Prop :=
  HInv hashf m /\ forall k v, In (k, v) (hmap_range m) <-> s k = Some v.

Lemma rel_get hashf m s k : Rel hashf m s -> hmap_get hashf m k = s k.
Proof.
  intros [HI Hs]. pose proof (get_spec hashf m k HI) as H.
  destruct (hmap_get hashf m k) as [v|].
  - symmetry. apply Hs. exact H.
  - destruct (s k) as [v|] eqn:E; [|reflexivity]. exfalso. apply (H v). apply Hs. exact E.
Qed.

Lemma rel_compute hashf m s key f :
  Rel hashf m s -> hsize m <= 2 ^ 63 ->
  snd (hmap_compute hashf m key f) = Some (s key) /\
  Rel hashf (fst (hmap_compute hashf m key f)) (fst (sstep s (HCompute key f))) /\
  hsize (fst (hmap_compute hashf m key f)) <= hsize m + 1.
Proof.
  intros [HI Hs] Hb. pose proof (compute_spec hashf m key f HI Hb) as H.
  destruct (hmap_compute hashf m key f) as [m' seen]. cbn [fst snd].
  destruct H as (HI' & old & rest & -> & P1 & P2 & Hk).
  assert (Hs' : forall k v, s k = Some v <-> (k = key /\ old = Some v) \/ (k <> key /\ In (k, v) rest)).
  { intros k v. rewrite <- Hs, P1. apply in_bind. exact Hk. }
  assert (Hold : old = s key).
  { destruct (s key) as [v|] eqn:E; [apply Hs' in E; tauto|].
    destruct old as [v|]; [|reflexivity]. symmetry. rewrite <- E. apply Hs'. tauto. }
  split; [rewrite Hold; reflexivity|]. split.
  - split; [exact HI'|]. intros k v. cbn [sstep fst]. rewrite P2, in_bind by assumption.
    destruct (Z.eqb_spec k key) as [->|Hne]; [rewrite Hold|rewrite Hs']; tauto.
  - destruct HI as (_ & Hsz & _). destruct HI' as (_ & Hsz' & _). rewrite Hsz, Hsz'.
    rewrite (Permutation_length P1), (Permutation_length P2).
    destruct old, (res_of f _); cbn [bind length]; lia.
Qed.

Lemma rel_empty hashf m : HInv hashf m -> hmap_range m = [] -> Rel hashf m (fun _ => None).
Proof. intros HI E. split; [exact HI|]. intros k v. rewrite E. split; [intros []|discriminate]. Qed.

Lemma rel_clear hashf m s : Rel hashf m s -> Rel hashf (hmap_clear hashf m) (fun _ => None) /\ hsize (hmap_clear hashf m) = 0.
Proof.
  intros [HI _]. destruct (resize_spec hashf m Clear HI) as [HI' P].
  split; [|reflexivity]. apply rel_empty; [exact HI'|]. apply Permutation_nil. symmetry. exact P.
Qed.

Lemma rel_new hashf n : 1 <= n -> Rel hashf (hmap_new n) (fun _ => None) /\ hsize (hmap_new n) = 0.
Proof. intros Hn. split; [|reflexivity]. apply rel_empty; apply (HInv_new hashf n Hn). Qed.

Lemma rel_step hashf m s o :
  Rel hashf m s -> hsize m <= 2 ^ 63 ->
  snd (mstep hashf m o) = snd (sstep s o) /\ Rel hashf (fst (mstep hashf m o)) (fst (sstep s o)) /\
  hsize (fst (mstep hashf m o)) <= hsize m + 1.
Proof.
  intros HR Hb. destruct o as [k|k f|]; cbn [mstep sstep fst snd].
  - rewrite (rel_get hashf m s k HR). split; [reflexivity|]. split; [exact HR|lia].
  - destruct (rel_compute hashf m s k f HR Hb) as (Hseen & HR' & Hsz).
    destruct (hmap_compute hashf m k f) as [m' seen]. cbn [fst snd] in *. subst seen. tauto.
  - destruct (rel_clear hashf m s HR) as [HR' Hsz]. pose proof (HInv_size_nonneg _ _ (proj1 HR)).
    split; [reflexivity|]. split; [exact HR'|lia].
Qed.

Theorem run_refines hashf : forall ops m s B,
  Rel hashf m s -> hsize m <= B -> B + Z.of_nat (length ops) <= 2 ^ 63 ->
  mrun hashf m ops = srun s ops /\ Rel hashf (mfinal hashf m ops) (sfinal s ops).
Proof.
  induction ops as [|o t IH]; intros m s B HR Hb HB; [split; [reflexivity|exact HR]|].
  cbn [length] in HB. destruct (rel_step hashf m s o HR ltac:(lia)) as (Eo & HR' & Hsz).
  unfold mfinal, sfinal. cbn [mrun srun fold_left].
  destruct (mstep hashf m o) as [m' out], (sstep s o) as [s' out']. cbn [fst snd] in *. subst out'.
  destruct (IH m' s' (B + 1) HR' ltac:(lia) ltac:(lia)) as [E R]. split; [rewrite E; reflexivity|exact R].
Qed.

(* what iteration (Range) sees in any state related to a finite map: every binding exactly once *)
Lemma rel_range hashf m s :
  Rel hashf m s ->
  NoDup (keys (hmap_range m)) /\ (forall k v, In (k, v) (hmap_range m) <-> s k = Some v) /\
  hsize m = Z.of_nat (length (hmap_range m)).
Proof. intros [((_ & _ & _ & Hnd) & Hsz & _) Hs]. split; [exact Hnd|]. split; assumption. Qed.
