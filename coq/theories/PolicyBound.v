(* PolicyBound.v — the eviction loop restores the size bound (C04): when evictFromMain gives up, every
   node still linked has weight zero or the total no longer exceeds the maximum; and the fuel the model
   gives the loop (the code's loop has none) always suffices. *)
From Otter Require Import Base Policy Maint PolicyFacts PolicyInv.
From Coq Require Import ZifyBool Lia.
Local Open Scope Z_scope.

Fixpoint before (d : list Z) (x : Z) : list Z :=
  match d with [] => [] | h :: t => if h =? x then [] else h :: before t x end.
Fixpoint after (d : list Z) (x : Z) : list Z :=
  match d with [] => [] | h :: t => if h =? x then t else after t x end.

Lemma before_incl d x y : In y (before d x) -> In y d.
Proof.
  induction d as [|h t IH]; cbn [before]; [intros []|]. destruct (h =? x); [intros []|].
  intros [<-|H]; [left; reflexivity|right; apply IH; exact H].
Qed.

Lemma before_head d x : dq_head d = Some x -> before d x = [].
Proof. destruct d as [|h t]; cbn [dq_head before]; [discriminate|]. intros H. injection H as ->. rewrite Z.eqb_refl. reflexivity. Qed.

Lemma before_delete_incl d c v y : c <> v -> In y (before (dq_delete d c) v) -> In y (before d v).
Proof.
  intros Hne. unfold dq_delete. induction d as [|h t IH]; cbn [filter before]; [intros []|].
  destruct (h =? c) eqn:Ec; cbn [negb].
  - intros H. destruct (h =? v) eqn:Ev; [apply Z.eqb_eq in Ec, Ev; congruence|]. right. exact (IH H).
  - cbn [before]. destruct (h =? v); [intros []|]. intros [<-|H]; [left; reflexivity|right; exact (IH H)].
Qed.

Lemma dq_next_after d x : dq_next d x = dq_head (after d x).
Proof. induction d as [|h t IH]; cbn [dq_next after]; [reflexivity|]. destruct (h =? x); [reflexivity|exact IH]. Qed.

Lemma after_app l x r : ~ In x l -> after (l ++ x :: r) x = r.
Proof.
  induction l as [|h l IH]; cbn [app after]; intros Hn; [rewrite Z.eqb_refl; reflexivity|].
  destruct (h =? x) eqn:E; [exfalso; apply Hn; left; lia|apply IH; intros H; apply Hn; right; exact H].
Qed.

Lemma after_notin d x : ~ In x d -> after d x = [].
Proof.
  induction d as [|h t IH]; cbn [after]; intros Hn; [reflexivity|].
  destruct (h =? x) eqn:E; [exfalso; apply Hn; left; lia|apply IH; intros H; apply Hn; right; exact H].
Qed.

Lemma after_split d x y r : after d x = y :: r -> d = before d x ++ x :: y :: r.
Proof.
  induction d as [|h t IH]; cbn [after before]; [discriminate|]. destruct (h =? x) eqn:E.
  - intros ->. cbn [app]. f_equal. lia.
  - intros H. cbn [app]. f_equal. exact (IH H).
Qed.

Lemma nodup_mid (l : list Z) x r : NoDup (l ++ x :: r) -> ~ In x l /\ ~ In x r.
Proof. intros H. apply NoDup_remove_2 in H. rewrite in_app_iff in H. tauto. Qed.

Lemma after_after d x y r : NoDup d -> after d x = y :: r -> In y d /\ after d y = r.
Proof.
  intros Nd E. apply after_split in E. revert E. generalize (before d x). intros l ->. split; [rewrite in_app_iff; right; right; left; reflexivity|].
  change (l ++ x :: y :: r) with (l ++ [x] ++ y :: r) in *. rewrite app_assoc in *.
  exact (after_app _ _ _ (proj1 (nodup_mid _ _ _ Nd))).
Qed.

Lemma after_len d x : (length (after d x) <= length d)%nat.
Proof. induction d as [|h t IH]; cbn [after length]; [lia|]. destruct (h =? x); lia. Qed.

Lemma delete_len d c : (length (dq_delete d c) <= length d)%nat.
Proof. unfold dq_delete. induction d as [|a t IHt]; cbn [filter length]; [lia|]. destruct (negb (a =? c)); cbn [length]; lia. Qed.

Lemma after_delete_len d c x : (length (after (dq_delete d c) x) <= length (after d x))%nat.
Proof.
  induction d as [|h t IH]; [cbn; lia|]. pose proof (after_len (dq_delete t c) x). pose proof (after_len t x). pose proof (delete_len t c).
  unfold dq_delete in *. cbn [filter after]. destruct (h =? c) eqn:Ec; cbn [negb after]; destruct (h =? x); lia.
Qed.

Lemma contains_delete d c x : x <> c -> dq_contains (dq_delete d c) x = dq_contains d x.
Proof.
  intros Hne. apply Bool.eq_true_iff_eq. rewrite !dq_contains_in, in_dq_delete.
  split; [intros [H _]; exact H|intros H; split; assumption].
Qed.

Lemma dq_delete_mid l x r : NoDup (l ++ x :: r) -> dq_delete (l ++ x :: r) x = l ++ r.
Proof.
  intros H. apply nodup_mid in H. destruct H as [Hl Hr]. unfold dq_delete. rewrite filter_app. cbn [filter].
  rewrite Z.eqb_refl. cbn [negb]. f_equal; apply dq_delete_notin; assumption.
Qed.

Lemma dq_head_delete r c : dq_head r <> Some c -> dq_head (dq_delete r c) = dq_head r.
Proof.
  destruct r as [|h t]; [reflexivity|]. cbn [dq_head]. intros H. unfold dq_delete. cbn [filter].
  replace (h =? c) with false; [reflexivity|]. symmetry. apply Z.eqb_neq. intros ->. apply H. reflexivity.
Qed.

Definition PQ (p : policy) : Prop := PI p (cnew []) (cold []).

Lemma PQ_nodup p : PQ p ->
  NoDup (qwin p) /\ NoDup (qprob p) /\ NoDup (qprot p) /\
  (forall x, In x (qwin p) -> ~ In x (qprob p)) /\ (forall x, In x (qwin p) -> ~ In x (qprot p)) /\ (forall x, In x (qprob p) -> ~ In x (qprot p)).
Proof. intros HP. apply nodup3_iff. exact (pi_nodup _ _ _ _ _ _ _ HP). Qed.

Lemma evict_queues p id : PQ p ->
  qwin (pol_evict p id) = dq_delete (qwin p) id /\ qprob (pol_evict p id) = dq_delete (qprob p) id /\
  qprot (pol_evict p id) = dq_delete (qprot p) id.
Proof.
  intros HP. exact (conj (PIX_evict_queue id QWINDOW HP) (conj (PIX_evict_queue id QPROBATION HP) (PIX_evict_queue id QPROTECTED HP))).
Qed.

Lemma queue_next p q l v r : PQ p -> queue_of p q = l ++ v :: r -> next_in p v = dq_head r.
Proof.
  intros HP E. pose proof (PIX_nodup_queue q HP) as Nd. rewrite E in Nd.
  rewrite <- (after_app l v r (proj1 (nodup_mid _ _ _ Nd))), <- E.
  assert (Hin : In v (queue_of p q)) by (rewrite E, in_app_iff; right; left; reflexivity). clear E Nd. revert Hin.
  destruct (PQ_nodup p HP) as (_ & _ & _ & Dab & Dac & Dbc). unfold next_in, queue_of.
  assert (F : forall d, ~ In v d -> dq_contains d v = false).
  { intros d N. destruct (dq_contains d v) eqn:E; [apply dq_contains_in in E; contradiction|reflexivity]. }
  destruct (q =? QWINDOW); [|destruct (q =? QPROBATION)]; intros Hin.
  - replace (dq_contains (qwin p) v) with true by (symmetry; apply dq_contains_in; exact Hin). apply dq_next_after.
  - rewrite (F (qwin p)) by (intros H; exact (Dab v H Hin)).
    replace (dq_contains (qprob p) v) with true by (symmetry; apply dq_contains_in; exact Hin). apply dq_next_after.
  - rewrite (F (qwin p)) by (intros H; exact (Dac v H Hin)). rewrite (F (qprob p)) by (intros H; exact (Dbc v H Hin)). apply dq_next_after.
Qed.

(* termination measure: each cursor pays for the nodes from itself to the end of its deque, and a stage for
   the deques it has yet to enter (the victim: protected then window; the candidate: the window) *)
Definition rem (p : policy) (o : option Z) : nat :=
  match o with
  | Some x => S (length (after (qwin p) x) + length (after (qprob p) x) + length (after (qprot p) x))
  | None => O
  end.
Definition vstage (p : policy) (vq : Z) : nat :=
  if vq =? QPROBATION then (length (qprot p) + length (qwin p) + 2)%nat
  else if vq =? QPROTECTED then (length (qwin p) + 1)%nat else O.
Definition cstage (p : policy) (cq : Z) : nat := if cq =? QPROBATION then (length (qwin p) + 1)%nat else O.
Definition mu (p : policy) (cu : cursors) : nat :=
  (rem p (c_victim cu) + vstage p (c_vq cu) + rem p (c_cand cu) + cstage p (c_cq cu))%nat.

Lemma rem_in p q y : PQ p -> In y (queue_of p q) -> rem p (Some y) = S (length (after (queue_of p q) y)).
Proof.
  intros HP. destruct (PQ_nodup p HP) as (_ & _ & _ & Dab & Dac & Dbc). cbn [rem]. unfold queue_of.
  destruct (q =? QWINDOW); [|destruct (q =? QPROBATION)]; intros Hy.
  - rewrite (after_notin (qprob p) y (Dab y Hy)), (after_notin (qprot p) y (Dac y Hy)). cbn [length]. lia.
  - rewrite (after_notin (qwin p) y (fun H => Dab y H Hy)), (after_notin (qprot p) y (Dbc y Hy)). cbn [length]. lia.
  - rewrite (after_notin (qwin p) y (fun H => Dac y H Hy)), (after_notin (qprob p) y (fun H => Dbc y H Hy)). cbn [length]. lia.
Qed.

Lemma rem_head p q h : PQ p -> dq_head (queue_of p q) = Some h -> rem p (Some h) = length (queue_of p q).
Proof.
  intros HP Hh. rewrite (rem_in p q h HP (dq_head_in _ _ Hh)).
  destruct (queue_of p q) as [|a t]; cbn [dq_head] in Hh; [discriminate|]. injection Hh as ->.
  cbn [after]. rewrite Z.eqb_refl. reflexivity.
Qed.

Lemma rem_next p x : PQ p -> (rem p (next_in p x) < rem p (Some x))%nat.
Proof.
  intros HP.
  assert (Hq : exists q, next_in p x = dq_head (after (queue_of p q) x)).
  { unfold next_in. destruct (dq_contains (qwin p) x); [exists QWINDOW|destruct (dq_contains (qprob p) x); [exists QPROBATION|exists QPROTECTED]]; apply dq_next_after. }
  destruct Hq as [q ->].
  assert (Hx : (S (length (after (queue_of p q) x)) <= rem p (Some x))%nat).
  { cbn [rem]. unfold queue_of. destruct (q =? QWINDOW); [|destruct (q =? QPROBATION)]; lia. }
  destruct (after (queue_of p q) x) as [|y r] eqn:Ea; cbn [dq_head]; [cbn [rem]; lia|].
  destruct (after_after _ _ _ _ (PIX_nodup_queue q HP) Ea) as [Hy Ey].
  rewrite (rem_in p q y HP Hy), Ey. cbn [length] in Hx. lia.
Qed.

Lemma rem_evict_le p id o : PQ p -> (rem (pol_evict p id) o <= rem p o)%nat.
Proof.
  intros HP. destruct o as [x|]; cbn [rem]; [|lia]. destruct (evict_queues p id HP) as (-> & -> & ->).
  pose proof (after_delete_len (qwin p) id x). pose proof (after_delete_len (qprob p) id x). pose proof (after_delete_len (qprot p) id x). lia.
Qed.

Lemma stage_evict p id q : PQ p -> (vstage (pol_evict p id) q <= vstage p q)%nat /\ (cstage (pol_evict p id) q <= cstage p q)%nat.
Proof.
  intros HP. unfold vstage, cstage. destruct (evict_queues p id HP) as (-> & _ & ->).
  pose proof (delete_len (qwin p) id). pose proof (delete_len (qprot p) id).
  destruct (q =? QPROBATION); [split; lia|]. destruct (q =? QPROTECTED); split; lia.
Qed.

Lemma rem_le p o : (rem p o <= length (qwin p) + length (qprob p) + length (qprot p) + 1)%nat.
Proof.
  destruct o as [x|]; cbn [rem]; [|lia].
  pose proof (after_len (qwin p) x). pose proof (after_len (qprob p) x). pose proof (after_len (qprot p) x). lia.
Qed.

(* searching the window for a candidate does not cost anything: the stage pays for it *)
Lemma eff_le p cu : PQ p ->
  (rem p (fst (eff_cand p cu)) + cstage p (snd (eff_cand p cu)) <= rem p (c_cand cu) + cstage p (c_cq cu))%nat.
Proof.
  intros HP. unfold eff_cand. destruct (c_cand cu) as [c|]; cbn [fst snd]; [lia|].
  unfold cstage. destruct (c_cq cu =? QPROBATION) eqn:E; cbn [fst snd]; [|rewrite E; lia]. change (QWINDOW =? QPROBATION) with false. cbv iota.
  destruct (dq_head (qwin p)) as [h|] eqn:Eh; [rewrite (rem_head p QWINDOW h HP Eh); change (queue_of p QWINDOW) with (qwin p)|cbn [rem]]; lia.
Qed.

Definition zeros (p : policy) (l : list Z) : Prop := forall y, In y l -> pweight (node_of p y) = 0.

Lemma zeros_evict p id l : zeros p l -> zeros (pol_evict p id) l.
Proof. intros H y Hy. rewrite pol_evict_weight. apply H. exact Hy. Qed.

Lemma zeros_incl p (l l' : list Z) : (forall y, In y l' -> In y l) -> zeros p l -> zeros p l'.
Proof. intros Hi H y Hy. apply H. apply Hi. exact Hy. Qed.

Lemma zeros_sum p l : zeros p l -> sum_weights p l = 0.
Proof.
  unfold sum_weights, sumZ. induction l as [|x l IH]; intros Hz; cbn [map fold_right]; [reflexivity|].
  rewrite (Hz x (or_introl eq_refl)), IH; [reflexivity|]. intros y Hy. apply Hz. right. exact Hy.
Qed.

(* The victim cursor walks probation, then protected, then the window; ef_step reads any tag other than the
   first two as the last stage. *)
Definition vtag (vq : Z) : Z :=
  if vq =? QPROBATION then QPROBATION else if vq =? QPROTECTED then QPROTECTED else QWINDOW.
Definition vdone (p : policy) (vq : Z) : list Z :=
  if vq =? QPROBATION then [] else if vq =? QPROTECTED then qprob p else qprob p ++ qprot p.

(* the victim cursor splits its deque into a part it has passed, all of weight zero, and a rest whose head it is *)
Definition VI (p : policy) (cu : cursors) : Prop :=
  exists l r, queue_of p (vtag (c_vq cu)) = l ++ r /\ c_victim cu = dq_head r /\ zeros p (vdone p (c_vq cu) ++ l).

Lemma vdone_evict p id vq y : PQ p -> In y (vdone (pol_evict p id) vq) -> In y (vdone p vq).
Proof.
  intros HP. unfold vdone. destruct (evict_queues p id HP) as (_ & -> & ->).
  destruct (vq =? QPROBATION); [tauto|]. destruct (vq =? QPROTECTED); rewrite ?in_app_iff, !in_dq_delete; tauto.
Qed.

Section Loop.
Variable hashf : Z -> Z -> Z.
Variable rnd : Z.

Lemma VI_step p cu : PQ p -> VI p cu ->
  match ef_step hashf rnd p cu with
  | EfStop => True
  | EfSkip cu' => VI p cu'
  | EfEvict id cu' => VI (pol_evict p id) cu'
  end.
Proof.
  intros HP (l & r & Ed & Ev & Hz). pose proof (ef_step_spec hashf rnd p cu) as HS. cbv zeta in HS.
  pose proof (PIX_nodup_queue (vtag (c_vq cu)) HP) as Nd. rewrite Ed in Nd.
  destruct (ef_step hashf rnd p cu) as [|cu'|id cu']; [exact I| |].
  - destruct HS as (_ & [(Hv & _ & _ & Hst)|[(Hq & _ & v & Hv & Hw & Hn)|(Hq & Hn & _)]]).
    + (* this deque is exhausted: the cursor goes to the head of the next *)
      rewrite Hv in Ev. destruct r; [|discriminate Ev]. rewrite app_nil_r in Ed. subst l.
      destruct Hst as [(Hvq & Hv' & Hq')|(Hvq & Hv' & Hq')]; rewrite Hvq in Hz; unfold VI; rewrite Hv', Hq'.
      * exists [], (qprot p). repeat split. rewrite app_nil_r. exact Hz.
      * exists [], (qwin p). repeat split. rewrite app_nil_r. exact Hz.
    + (* the victim weighs zero and is passed *)
      rewrite Hv in Ev. destruct r as [|v' r]; [discriminate Ev|]. injection Ev as <-.
      exists (l ++ [v]), r. unfold VI. rewrite Hq, Hn. split; [rewrite Ed, <- app_assoc; reflexivity|]. split.
      * exact (queue_next p _ l v r HP Ed).
      * intros y Hy. rewrite app_assoc in Hy. apply in_app_iff in Hy. destruct Hy as [Hy|[<-|[]]]; [exact (Hz y Hy)|exact Hw].
    + exists l, r. rewrite Hq, Hn. repeat split; assumption.
  - destruct HS as (_ & _ & Hq & _ & Hc). unfold VI. rewrite Hq, (PIX_evict_queue id _ HP), Ed.
    assert (Hz' : forall l', (forall y, In y l' -> In y l) -> zeros (pol_evict p id) (vdone (pol_evict p id) (c_vq cu) ++ l')).
    { intros l' Hl. apply zeros_evict. revert Hz. apply zeros_incl. intros y Hy. rewrite in_app_iff in *.
      destruct Hy as [Hy|Hy]; [left; exact (vdone_evict p id _ y HP Hy)|right; exact (Hl y Hy)]. }
    destruct Hc as [(Hv & -> & _)|(-> & Hne & _)].
    + (* the victim itself is evicted; the cursor has moved to its successor *)
      rewrite Hv in Ev. destruct r as [|v' r]; [discriminate Ev|]. injection Ev as <-.
      exists l, r. split; [exact (dq_delete_mid _ _ _ Nd)|]. split; [exact (queue_next p _ l id r HP Ed)|apply Hz'; auto].
    + (* the candidate is evicted; the victim cursor stays *)
      exists (dq_delete l id), (dq_delete r id). split; [apply filter_app|]. split.
      * rewrite dq_head_delete; [exact Ev|rewrite <- Ev; exact Hne].
      * apply Hz'. intros y Hy. apply in_dq_delete in Hy. apply Hy.
Qed.

Lemma mu_decreases p cu : PQ p ->
  match ef_step hashf rnd p cu with
  | EfStop => True
  | EfSkip cu' => (mu p cu' < mu p cu)%nat
  | EfEvict id cu' => (mu (pol_evict p id) cu' < mu p cu)%nat
  end.
Proof.
  intros HP. pose proof (eff_le p cu HP) as HE. pose proof (ef_step_spec hashf rnd p cu) as HS. cbv zeta in HS.
  unfold mu. destruct (ef_step hashf rnd p cu) as [|cu'|id cu']; [exact I| |].
  - destruct HS as (-> & [(Hv & Hc & -> & Hst)|[(-> & -> & v & Hv & _ & ->)|(-> & -> & c & Hc & ->)]]).
    + (* a new stage: the cursor enters a deque the stage had paid for *)
      rewrite Hv, Hc in *. cbn [rem] in *.
      destruct Hst as [(Hvq & -> & ->)|(Hvq & -> & ->)]; rewrite Hvq.
      * change (vstage p QPROBATION) with (length (qprot p) + length (qwin p) + 2)%nat. change (vstage p QPROTECTED) with (length (qwin p) + 1)%nat.
        destruct (dq_head (qprot p)) as [h|] eqn:Eh; [rewrite (rem_head p QPROTECTED h HP Eh); change (queue_of p QPROTECTED) with (qprot p)|cbn [rem]]; lia.
      * change (vstage p QWINDOW) with O. change (vstage p QPROTECTED) with (length (qwin p) + 1)%nat.
        destruct (dq_head (qwin p)) as [h|] eqn:Eh; [rewrite (rem_head p QWINDOW h HP Eh); change (queue_of p QWINDOW) with (qwin p)|cbn [rem]]; lia.
    + rewrite Hv. pose proof (rem_next p v HP). lia.
    + rewrite Hc in HE. pose proof (rem_next p c HP). lia.
  - (* an eviction shortens deques, which makes nothing dearer; the cursor at the evicted node has moved on *)
    destruct HS as (_ & _ & -> & -> & Hc).
    destruct (stage_evict p id (c_vq cu) HP) as [S1 _]. destruct (stage_evict p id (snd (eff_cand p cu)) HP) as [_ S2].
    pose proof (rem_evict_le p id (c_victim cu') HP) as L1. pose proof (rem_evict_le p id (c_cand cu') HP) as L2.
    pose proof (rem_next p id HP) as N.
    destruct Hc as [(Hv & Hv' & Hc)|(Hv' & _ & Hc & Hc')]; rewrite Hv' in L1 |- *.
    + assert (rem p (c_cand cu') <= rem p (fst (eff_cand p cu)))%nat
        by (destruct Hc as [->|(c & -> & [->| ->])]; [lia|pose proof (rem_next p c HP); lia|cbn [rem]; lia]).
      rewrite Hv. lia.
    + rewrite Hc' in L2 |- *. rewrite Hc in HE. lia.
Qed.

(* within its fuel the loop ends by its own condition: the bound holds, or nothing of non-zero weight is linked *)
Lemma evict_from_main_bound fuel : forall p cu acc, PQ p -> VI p cu -> (mu p cu < fuel)%nat ->
  let p' := fst (evict_from_main fuel hashf rnd p cu acc) in
  PQ p' /\ (wsize p' <= maxi p' \/ zeros p' (qwin p' ++ qprob p' ++ qprot p')).
Proof.
  induction fuel as [|f IH]; intros p cu acc HP HV Hm; [lia|]. cbn [evict_from_main].
  pose proof (VI_step p cu HP HV) as Hstep. pose proof (mu_decreases p cu HP) as Hd.
  pose proof (ef_step_spec hashf rnd p cu) as HS. cbv zeta in HS.
  destruct (ef_step hashf rnd p cu) as [|cu'|id cu'].
  - cbn [fst]. split; [exact HP|]. destruct HS as [H|(Hv & _ & N1 & N2)]; [left; exact H|right].
    destruct HV as (l & r & Ed & Ev & Hz). rewrite Hv in Ev. destruct r; [|discriminate Ev]. rewrite app_nil_r in Ed. subst l.
    revert Hz. unfold vtag, vdone. apply Z.eqb_neq in N1, N2. rewrite N1, N2. apply zeros_incl.
    intros y. change (queue_of p QWINDOW) with (qwin p). rewrite !in_app_iff. tauto.
  - apply IH; [exact HP|exact Hstep|lia].
  - apply IH; [apply PI_evict; exact HP|exact Hstep|lia].
Qed.
End Loop.

Lemma linked_le_store p : PQ p -> (length (qwin p) + length (qprob p) + length (qprot p) <= store_size p)%nat.
Proof.
  intros HP. pose proof (pi_nodup _ _ _ _ _ _ _ HP) as Nd. unfold store_size.
  rewrite <- Nat.add_assoc, <- !app_length, <- (map_length fst (store p)). apply NoDup_incl_length; [exact Nd|].
  intros x Hx. assert (L : linked p x) by (unfold linked; rewrite !in_app_iff in Hx; tauto).
  destruct (linked_tracked x HP L) as (nd & A & _). exact (sget_in_keys _ _ _ A).
Qed.

Theorem pol_evict_nodes_bound hashf rnd p : PQ p ->
  let p' := fst (pol_evict_nodes hashf rnd p) in
  PQ p' /\ (wsize p' <= maxi p' \/ wsize p' = 0).
Proof.
  intros HP. unfold pol_evict_nodes.
  destruct (PIX_evict_from_window 0 0 0 _ _ _ (2 * store_size p + 8) p (dq_head (qwin p)) None HP (dq_head_in _)) as [H1 Hs].
  destruct (evict_from_window (2 * store_size p + 8) p (dq_head (qwin p)) None) as [p1 first]. cbn [fst] in H1, Hs.
  set (cu0 := mkCur (dq_head (qprob p1)) first QPROBATION QPROBATION).
  assert (HV : VI p1 cu0) by (exists [], (qprob p1); repeat split; intros y []).
  assert (Hmu : (mu p1 cu0 < 4 * store_size p + 16)%nat).
  { unfold mu, cu0. cbn [c_victim c_vq c_cand c_cq]. change (vstage p1 QPROBATION) with (length (qprot p1) + length (qwin p1) + 2)%nat.
    change (cstage p1 QPROBATION) with (length (qwin p1) + 1)%nat.
    pose proof (rem_le p1 (dq_head (qprob p1))). pose proof (rem_le p1 first). pose proof (linked_le_store p1 H1). lia. }
  destruct (evict_from_main_bound hashf rnd _ p1 cu0 [] H1 HV Hmu) as [HP' Hb]. cbv zeta in HP', Hb.
  split; [exact HP'|]. destruct Hb as [Hb|Hz]; [left; exact Hb|right].
  rewrite (quiescent_weighted_size _ HP'), (zeros_sum _ _ Hz). reflexivity.
Qed.

(* the climber moves nodes between the deques and shifts the window / protected maxima only *)
Definition bound (p : policy) : Z * Z := (wsize p, maxi p).

Lemma with_sizes_bound p a b : bound (with_sizes p (wsize p) a b) = bound p.
Proof. reflexivity. Qed.

Lemma with_maxima_bound p a b : bound (with_maxima p (maxi p) a b) = bound p.
Proof. reflexivity. Qed.

Lemma set_queue_bound p q d : bound (set_queue p q d) = bound p.
Proof. unfold set_queue. destruct (q =? QWINDOW); [reflexivity|]. destruct (q =? QPROBATION); reflexivity. Qed.

Lemma move_to_bound p id q : bound (move_to p id q) = bound p.
Proof. unfold move_to. rewrite set_queue_bound. exact (set_queue_bound _ _ _). Qed.

Lemma demote_loop_bound fuel : forall p pws, bound (fst (demote_loop fuel p pws)) = bound p.
Proof.
  induction fuel as [|f IH]; intros p pws; cbn [demote_loop]; [reflexivity|].
  destruct (pws <=? pmax p); [reflexivity|]. destruct (qprot p) as [|id rest]; [reflexivity|]. rewrite IH. reflexivity.
Qed.

Lemma pol_demote_bound p : bound (pol_demote p) = bound p.
Proof.
  (* the fuel is made a variable first: destruct would otherwise search through the unfolding of the loop *)
  unfold pol_demote. generalize 1000%nat. intros n. destruct (pwsize p <=? pmax p); [reflexivity|].
  pose proof (demote_loop_bound n p (pwsize p)) as H. destruct (demote_loop n p (pwsize p)) as [p1 pws]. rewrite with_sizes_bound. exact H.
Qed.

Lemma increase_loop_bound fuel : forall p quota, bound (fst (increase_loop fuel p quota)) = bound p.
Proof.
  induction fuel as [|f IH]; intros p quota; cbn [increase_loop]; [reflexivity|].
  destruct (dq_head (qprob p)) as [c|]; [destruct (quota <? pweight (node_of p c))|];
    try destruct (dq_head (qprot p)) as [c2|]; try reflexivity; cbv beta iota zeta;
    (destruct (quota <? _); [reflexivity|]); rewrite IH, with_sizes_bound; apply move_to_bound.
Qed.

Lemma decrease_loop_bound fuel : forall p quota, bound (fst (decrease_loop fuel p quota)) = bound p.
Proof.
  induction fuel as [|f IH]; intros p quota; cbn [decrease_loop]; [reflexivity|].
  destruct (dq_head (qwin p)) as [c|]; [|reflexivity]. cbv zeta.
  destruct (quota <? pweight (node_of p c)); [reflexivity|]. rewrite IH, with_sizes_bound. apply move_to_bound.
Qed.

Lemma pol_climb_adj_bound adj p : bound (fst (pol_climb_adj adj p)) = bound p.
Proof.
  unfold pol_climb_adj. rewrite <- (pol_demote_bound p). generalize (pol_demote p). clear p. intros p.
  destruct (adj =? 0); [reflexivity|]. destruct (adj >? 0).
  - unfold pol_increase_window. generalize 1000%nat. intros n. destruct (pmax p =? 0); [reflexivity|]. cbv zeta.
    match goal with |- context [increase_loop ?n ?q ?w] => pose proof (increase_loop_bound n q w) as H; destruct (increase_loop n q w) as [p3 quota] end.
    cbn [fst] in *. rewrite pol_demote_bound, with_maxima_bound in H. rewrite with_maxima_bound. exact H.
  - unfold pol_decrease_window. generalize 1000%nat. intros n. destruct (wmax p <=? 1); [reflexivity|]. cbv zeta.
    match goal with |- context [decrease_loop ?n ?q ?w] => pose proof (decrease_loop_bound n q w) as H; destruct (decrease_loop n q w) as [p3 quota] end.
    cbn [fst] in *. rewrite with_maxima_bound in H. rewrite with_maxima_bound. exact H.
Qed.

(* C04: a maintenance run that starts with no task in flight (everything recorded is in the write buffer)
   ends with the total weight of the entries linked in the policy at most the maximum (or zero) *)
Theorem maintenance_restores_bound hashf cur rnd now adj m :
  MI m (wbuf m) ->
  let m' := fst (fst (fst (m_maintenance hashf cur rnd now adj m))) in
  MI m' [] /\ wbuf m' = [] /\ (wsize (pol m') <= maxi (pol m') \/ wsize (pol m') = 0).
Proof.
  intros HM. rewrite m_maintenance_split.
  destruct (MI_maint_pre hashf cur m [] HM) as [H2 Ew2]. destruct (m_maint_pre hashf cur m) as [m2 evt]. cbn [fst] in H2, Ew2.
  destruct (maint_post_pol hashf cur rnd now adj m2 [] H2) as (p3 & HP & Ep & Ee & Ew).
  destruct (m_maint_post hashf cur rnd now adj m2) as [[m5 ex] evd]. cbn [fst] in *.
  destruct (pol_evict_nodes_bound hashf rnd p3 HP) as [HP4 Hb].
  split; [split; [exact Ee|rewrite Ep; apply PIX_pol_climb_adj; exact HP4]|]. split; [rewrite Ew; exact Ew2|].
  rewrite Ep. pose proof (pol_climb_adj_bound adj (fst (pol_evict_nodes hashf rnd p3))) as H. injection H as -> ->. exact Hb.
Qed.

(* the same over all event lists; the system is then quiescent *)
Theorem bound_after_maintenance hashf evs expire weighted cur rnd now adj :
  run_ok hashf (sys0 expire weighted) evs ->
  let s := fold_left (sys_step hashf) evs (sys0 expire weighted) in
  sfl s = [] ->
  let s' := sys_step hashf s (EMaint cur rnd now adj) in
  let p := pol (sm s') in
  pend s' = [] /\
  wsize p = wrapu (sum_weights p (qwin p ++ qprob p ++ qprot p)) /\
  (forall id, linked p id <-> alive_in p id) /\
  (wsize p <= maxi p \/ wsize p = 0).
Proof.
  intros Hok s Hfl s' p.
  pose proof (SI_run hashf evs (sys0 expire weighted) (SI_sys0 expire weighted) Hok) as HS. fold s in HS.
  unfold SI, pend in HS. rewrite Hfl in HS. cbn [app] in HS.
  destruct (maintenance_restores_bound hashf cur rnd now adj (sm s) HS) as (HM & Hw & Hb). cbv zeta in HM, Hw, Hb.
  assert (Hp : pend s' = []).
  { unfold s', pend. cbn [sys_step sm sfl]. rewrite Hfl, Hw. reflexivity. }
  split; [exact Hp|].
  destruct HM as [_ HP]. unfold s' in p. cbn [sys_step sm] in p. fold p in HP, Hb.
  split; [exact (quiescent_weighted_size p HP)|]. split; [exact (quiescent_linked_iff_alive p HP)|exact Hb].
Qed.
