(* HashMapConcLin.v — the linearization of the hash table's concurrency protocol, stated without
   reference to how the ghosts are computed: [ulog] lists the threads in the order of their update
   steps; replaying their functions in that order, one after the other, from the empty map gives every
   value the abstract map ever had ([hist]) and in particular its present value — which is the content of
   the published table (HashMapConcProofs.conc_table_is_spec); and every thread occurs in the log as
   many times as it has applied its function (exactly once when its Compute has returned). *)
From Coq Require Import List Arith Bool ZArith Lia.
Import ListNotations.
From Otter Require Import Base HashMapConc HashMapConcProofs.
Local Open Scope nat_scope.

Definition apply_one (m : Z -> option Z) (kf : Z * (option Z -> option Z)) : Z -> option Z :=
  upd_fun m (fst kf) (snd kf (m (fst kf))).
Definition replay (l : list (Z * (option Z -> option Z))) : Z -> option Z :=
  fold_left apply_one l (fun _ => None).

Definition kf_of (ths : list hthread) (j : nat) : Z * (option Z -> option Z) :=
  match nth_error ths j with Some t => (hkey t, hfun t) | None => (0%Z, fun v => v) end.

Section Lin.
Variable hidx : nat -> Z -> nat.
Variable KU : list Z.

Record HLInv (s : hcstate) : Prop := {
  l_len : length (hist s) = S (length (ulog s));
  l_valid : forall n, n < length (ulog s) -> nth n (ulog s) 0 < length (hths s);
  l_step : forall n k, n < length (ulog s) ->
           nth (S n) (hist s) dflt k = apply_one (nth n (hist s) dflt) (kf_of (hths s) (nth n (ulog s) 0)) k;
  l_first : forall k, nth 0 (hist s) dflt k = None;
  l_count : forall j t, nth_error (hths s) j = Some t -> count_occ Nat.eq_dec (ulog s) j = happ t
}.

Lemma kf_of_upd ths i t t' j : nth_error ths i = Some t -> hkey t' = hkey t -> hfun t' = hfun t ->
  kf_of (upd_nth i t' ths) j = kf_of ths j.
Proof.
  intros Hi Hk Hf. unfold kf_of. rewrite nth_error_upd_nth.
  destruct (Nat.eqb_spec j i) as [->|]; [|reflexivity]. rewrite Hi. cbn. rewrite Hk, Hf. reflexivity.
Qed.

(* thread i moves from [t] to [t'] without an update step *)
Lemma hl_frame {s i t t' st' lk' rz' ln' cu' fz' cnt'} :
  HLInv s -> nth_error (hths s) i = Some t -> hkey t' = hkey t -> hfun t' = hfun t -> happ t' = happ t ->
  HLInv (mkHcs ln' st' lk' cu' rz' (spec s) (hist s) fz' cnt' (ulog s) (upd_nth i t' (hths s))).
Proof.
  intros L Hi Hk Hf Ha.
  constructor; cbn [hist ulog hths].
  - apply (l_len s L).
  - intros n Hn. rewrite length_upd_nth. apply (l_valid s L n Hn).
  - intros n k Hn. rewrite (kf_of_upd _ i t t' _ Hi Hk Hf). apply (l_step s L n k Hn).
  - apply (l_first s L).
  - intros j u Hj. destruct (nth_upd_cases _ _ _ _ _ Hj) as [[-> ->]|[_ Hj']]; [rewrite Ha; apply (l_count s L i t Hi)|apply (l_count s L j u Hj')].
Qed.

Lemma count_occ_snoc l (x j : nat) : count_occ Nat.eq_dec (l ++ [x]) j = count_occ Nat.eq_dec l j + (if Nat.eq_dec x j then 1 else 0).
Proof. rewrite count_occ_app. cbn [count_occ]. destruct (Nat.eq_dec x j); reflexivity. Qed.

Theorem HLInv_step s i o : HRInv hidx s -> HLInv s -> HLInv (hstep hidx KU s i o).
Proof.
  intros R L. unfold hstep, ret_pc. destruct (nth_error (hths s) i) as [t|] eqn:Hi; [|exact L].
  rewrite <- (set_pc_id t) in Hi |- *. destruct (hpc_ t); calc.
  - (* W0 *) apply (hl_frame L Hi); reflexivity.
  - (* W1 *) destruct (lk s (hsnap t) (hbi t)); [exact L|]. apply (hl_frame L Hi); reflexivity.
  - (* W2 *) destruct (resizing s); apply (hl_frame L Hi); reflexivity.
  - (* Wwait *) destruct (resizing s); [exact L|]. apply (hl_frame L Hi); reflexivity.
  - (* W3 *) destruct (Nat.eqb (hcur s) (hsnap t)); apply (hl_frame L Hi); reflexivity.
  - (* W4: the log and the history grow together *)
    destruct o as [|o]; [|apply (hl_frame L Hi); reflexivity].
    pose proof (l_len s L) as Hlen. pose proof (nth_error_Some (hths s) i) as Hlt. rewrite Hi in Hlt.
    constructor; cbn [hist ulog hths].
    + rewrite !app_length. cbn [length]. lia.
    + intros n Hn. rewrite length_upd_nth. rewrite app_length in Hn. cbn [length] in Hn.
      destruct (Nat.eq_dec n (length (ulog s))) as [->|Hne].
      * rewrite app_nth2, Nat.sub_diag by lia. apply Hlt. discriminate.
      * rewrite app_nth1 by lia. apply (l_valid s L). lia.
    + intros n k Hn. rewrite app_length in Hn. cbn [length] in Hn.
      erewrite kf_of_upd; [|exact Hi|reflexivity|reflexivity].
      destruct (Nat.eq_dec n (length (ulog s))) as [->|Hne].
      * rewrite (app_nth2 (ulog s)), Nat.sub_diag by lia. cbn [nth].
        rewrite (app_nth2 (hist s)) by lia. replace (S (length (ulog s)) - length (hist s)) with 0 by lia. cbn [nth].
        rewrite (app_nth1 (hist s)) by lia.
        unfold apply_one, kf_of. rewrite Hi. cbn [fst snd set_pc hkey hfun]. unfold upd_fun.
        assert (Hs : forall k', spec s k' = nth (length (ulog s)) (hist s) dflt k').
        { intros k'. rewrite (r_spec hidx s R). f_equal. lia. }
        rewrite <- !Hs. reflexivity.
      * rewrite (app_nth1 (ulog s)) by lia. rewrite !(app_nth1 (hist s)) by lia. apply (l_step s L). lia.
    + intros k. rewrite app_nth1 by lia. apply (l_first s L).
    + intros j u Hj. rewrite count_occ_snoc. destruct (nth_upd_cases _ _ _ _ _ Hj) as [[-> ->]|[Hne Hj']].
      * cbn [happ]. rewrite (l_count s L i _ Hi). cbn. destruct (Nat.eq_dec i i); [lia|contradiction].
      * rewrite (l_count s L j u Hj'). destruct (Nat.eq_dec i j); [congruence|lia].
  - (* W5 *) apply (hl_frame L Hi); reflexivity.
  - (* Wadd *) apply (hl_frame L Hi); reflexivity.
  - (* W6 *) destruct o; apply (hl_frame L Hi); reflexivity.
  - (* R0 *) destruct (resizing s); [|destruct o]; apply (hl_frame L Hi); reflexivity.
  - (* Rwait *) destruct (resizing s); [exact L|]. apply (hl_frame L Hi); reflexivity.
  - (* R1 *) destruct (forallb (hcop t) (seq 0 (len_of s (hsnap t)))); [apply (hl_frame L Hi); reflexivity|].
    destruct (Nat.ltb o (len_of s (hsnap t)) && negb (hcop t o) && negb (lk s (hsnap t) o)); [|exact L].
    apply (hl_frame L Hi); reflexivity.
  - (* R2 *) apply (hl_frame L Hi); reflexivity.
  - (* R3 *) apply (hl_frame L Hi); reflexivity.
  - (* HDone *) exact L.
  - (* G0 *) apply (hl_frame L Hi); reflexivity.
  - (* G1 *) apply (hl_frame L Hi); reflexivity.
  - (* GDone *) exact L.
  - (* I0 *) apply (hl_frame L Hi); reflexivity.
  - (* I1 *) destruct (Nat.ltb (hbi t) (len_of s (hsnap t))); [destruct (lk s (hsnap t) (hbi t)); [exact L|]|];
      apply (hl_frame L Hi); reflexivity.
  - (* IDone *) exact L.
Qed.

Lemma HLInv_init n0 ops : HLInv (hinit n0 ops).
Proof.
  constructor.
  - reflexivity.
  - intros n Hn. cbn in Hn. lia.
  - intros n k Hn. cbn in Hn. lia.
  - intros k. reflexivity.
  - intros j. refine (init_all _ _ _ _ j). intros [| |]; reflexivity.
Qed.

Lemma HLInv_run sched : forall s, HCInv hidx s -> HRInv hidx s -> HLInv s -> HLInv (hrun hidx KU s sched).
Proof.
  induction sched as [|e sched IH]; intros s I R L; [exact L|]. cbn [hrun fold_left].
  apply IH; [apply HCInv_step; exact I|apply HRInv_step; assumption|apply HLInv_step; assumption].
Qed.

Lemma hist_is_replay s : HLInv s -> forall n, n <= length (ulog s) -> forall k,
  nth n (hist s) dflt k = replay (map (kf_of (hths s)) (firstn n (ulog s))) k.
Proof.
  intros L. induction n as [|n IH]; intros Hn k.
  - cbn. apply (l_first s L).
  - rewrite (l_step s L n k ltac:(lia)), (firstn_S_nth 0) by lia. rewrite map_app. unfold replay. rewrite fold_left_app. cbn [map fold_left].
    unfold apply_one at 1 3. unfold upd_fun.
    specialize (IH ltac:(lia)). unfold replay in IH. rewrite !IH. reflexivity.
Qed.

(* the content of the published table is the replay of the whole log; every thread is in the log as
   many times as it has applied its function *)
Theorem conc_linearization n0 ops sched : 1 <= n0 ->
  let s := hrun hidx KU (hinit n0 ops) sched in
  (forall k, stores s (hcur s) k = replay (map (kf_of (hths s)) (ulog s)) k) /\
  (forall j t, nth_error (hths s) j = Some t -> count_occ Nat.eq_dec (ulog s) j = b2n (applied t)).
Proof.
  intros Hn s.
  destruct (conc_inv hidx KU n0 ops sched Hn) as [I R].
  pose proof (HLInv_run sched _ (HCInv_init hidx n0 ops Hn) (HRInv_init hidx n0 ops) (HLInv_init n0 ops)) as L.
  fold s in I, R, L. split.
  - intros k. rewrite (iv_spec hidx s I), (r_spec hidx s R).
    replace (length (hist s) - 1) with (length (ulog s)) by (rewrite (l_len s L); lia).
    rewrite (hist_is_replay s L (length (ulog s)) (le_n _) k), firstn_all. reflexivity.
  - intros j t Hj. rewrite (l_count s L j t Hj). apply (r_app hidx s R j t Hj).
Qed.

End Lin.
