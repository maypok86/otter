(* HashMapConcSize.v — the size counter of the hash table's concurrency protocol (HashMapConc.v): for
   every schedule, the current table's counter plus what the writers that have updated it still owe it
   equals the number of keys bound in it; the counter a resize computes while copying is the number of
   keys it has copied.  So once every call has returned, Size() is the number of keys. *)
From Coq Require Import List Arith Bool ZArith Lia.
Import ListNotations.
From Otter Require Import HashMapConc HashMapConcProofs.
Local Open Scope nat_scope.

Definition pending (t : hthread) : bool := pc_in (hpc_ t) [W5; Wadd].
Definition rd (t : hthread) : bool := pc_in (hpc_ t) [G0; G1; GDone; I0; I1; IDone].
Definition zsum (f : hthread -> Z) (l : list hthread) : Z := fold_right (fun t a => (f t + a)%Z) 0%Z l.
Definition b2z (b : bool) : Z := if b then 1%Z else 0%Z.

Lemma zsum_upd f x : forall l i old, nth_error l i = Some old -> zsum f (upd_nth i x l) = (zsum f l - f old + f x)%Z.
Proof.
  induction l as [|h t IH]; intros i old H; [destruct i; discriminate H|].
  destruct i as [|i]; cbn [nth_error upd_nth zsum fold_right] in *.
  - injection H as ->. lia.
  - fold (zsum f t) (zsum f (upd_nth i x t)). rewrite (IH i old H). lia.
Qed.

Lemma zsum_zero f l : (forall j t, nth_error l j = Some t -> f t = 0%Z) -> zsum f l = 0%Z.
Proof.
  induction l as [|h t IH]; intros H; [reflexivity|]. cbn [zsum fold_right]. rewrite (H 0 h eq_refl).
  apply IH. intros j u Hj. apply (H (S j) u Hj).
Qed.

Lemma count_change_at (p p' : Z -> bool) k0 : forall l, NoDup l -> In k0 l -> (forall k, k <> k0 -> p' k = p k) ->
  Z.of_nat (length (filter p' l)) = (Z.of_nat (length (filter p l)) + b2z (p' k0) - b2z (p k0))%Z.
Proof.
  induction l as [|h t IH]; intros Hn Hin Hext; [destruct Hin|].
  inversion Hn as [|? ? Hnot Hn']; subst. cbn [filter].
  destruct (Z.eq_dec h k0) as [->|Hne].
  - assert (Ht : filter p' t = filter p t).
    { apply filter_ext_in. intros a Ha. apply Hext. intros ->. apply Hnot. exact Ha. }
    rewrite Ht. destruct (p' k0), (p k0); cbn [length b2z]; lia.
  - destruct Hin as [->|Hin]; [congruence|]. rewrite (Hext h Hne). specialize (IH Hn' Hin Hext).
    destruct (p h); cbn [length]; lia.
Qed.

Lemma count_ext (p p' : Z -> bool) l : (forall k, p' k = p k) -> filter p' l = filter p l.
Proof. intros H. apply filter_ext. exact H. Qed.

Lemma count_disjoint (a b c : Z -> bool) : forall l, (forall k, a k && b k = false) ->
  length (filter (fun k => (a k || b k) && c k) l) = length (filter (fun k => a k && c k) l) + length (filter (fun k => b k && c k) l).
Proof.
  intros l Hd. induction l as [|h t IH]; [reflexivity|]. cbn [filter]. specialize (Hd h).
  destruct (a h), (b h), (c h); cbn [andb orb length] in *; try discriminate Hd; lia.
Qed.

Lemma delta_b2z old new : delta_of old new = (b2z (is_some new) - b2z (is_some old))%Z.
Proof. destruct old, new; reflexivity. Qed.

Lemma filter_false {A} (l : list A) : filter (fun _ => false) l = [].
Proof. induction l; [reflexivity|assumption]. Qed.

Section Size.
Variable hidx : nat -> Z -> nat.
Variable KU : list Z.
Hypothesis KU_nodup : NoDup KU.

Definition owed (s : hcstate) (t : hthread) : Z := if pending t && Nat.eqb (hsnap t) (hcur s) then hdelta t else 0%Z.
Definition nb (s : hcstate) (g : nat) : Z := Z.of_nat (length (filter (fun k => is_some (stores s g k)) KU)).
Definition copied_count (s : hcstate) (r : hthread) : Z :=
  Z.of_nat (length (filter (fun k => hcop r (bidx_of hidx s (hsnap r) k) && is_some (stores s (hsnap r) k)) KU)).

Record HSInv (s : hcstate) : Prop := {
  z_tk : forall j t, nth_error (hths s) j = Some t -> rd t = false -> In (hkey t) KU;
  z_snap : forall j t, nth_error (hths s) j = Some t -> pending t = true -> hsnap t < length (lens s);
  z_cur : (cnt s (hcur s) + zsum (owed s) (hths s))%Z = nb s (hcur s);
  z_rs : forall jr r, nth_error (hths s) jr = Some r -> pc_in (hpc_ r) [R1; R2] = true -> hncnt r = copied_count s r;
  z_keys : forall g k, stores s g k <> None -> In k KU
}.

(* thread i moves from [t] to [t']; the tables stay, the counter moves with what the thread owes *)
Lemma hs_frame {s i t t' lk' rz' cnt'} :
  HSInv s -> nth_error (hths s) i = Some t ->
  hkey t' = hkey t -> rd t' = rd t -> (cnt' (hcur s) + owed s t' = cnt s (hcur s) + owed s t)%Z ->
  (pending t' = true -> hsnap t' < length (lens s)) ->
  (pc_in (hpc_ t') [R1; R2] = true -> hncnt t' = copied_count s t') ->
  HSInv (mkHcs (lens s) (stores s) lk' (hcur s) rz' (spec s) (hist s) (froz s) cnt' (ulog s) (upd_nth i t' (hths s))).
Proof.
  intros Z Hi Hk Hrd Ho Hs Hr.
  constructor; cbn [lens stores hcur cnt hths].
  - refine (upd_all _ _ _ _ (z_tk s Z) _). rewrite Hk, Hrd. exact (z_tk s Z i t Hi).
  - exact (upd_all _ _ _ _ (z_snap s Z) Hs).
  - change (zsum _ ?l) with (zsum (owed s) l). rewrite (zsum_upd (owed s) t' _ i t Hi).
    pose proof (z_cur s Z) as Hc. unfold nb in *. cbn [stores]. lia.
  - exact (upd_all _ _ _ _ (z_rs s Z) Hr).
  - exact (z_keys s Z).
Qed.

Theorem HSInv_step s i o : HCInv hidx s -> HSInv s -> HSInv (hstep hidx KU s i o).
Proof.
  intros I Z. unfold hstep, ret_pc. destruct (nth_error (hths s) i) as [t|] eqn:Hi; [|exact Z].
  rewrite <- (set_pc_id t) in Hi |- *. destruct (hpc_ t); calc.
  - (* W0 *) apply (hs_frame Z Hi); side.
  - (* W1 *) destruct (lk s (hsnap t) (hbi t)); [exact Z|]. apply (hs_frame Z Hi); side.
  - (* W2 *) destruct (resizing s); apply (hs_frame Z Hi); side.
  - (* Wwait *) destruct (resizing s); [exact Z|]. apply (hs_frame Z Hi); side.
  - (* W3 *) destruct (Nat.eqb (hcur s) (hsnap t)); apply (hs_frame Z Hi); side.
  - (* W4: the binding of one key changes; the writer now owes the difference *)
    destruct o as [|o]; [|apply (hs_frame Z Hi); side].
    pose proof (iv_w4 hidx s I i _ Hi eq_refl) as Hsn. destruct (iv_bi hidx s I i _ Hi eq_refl) as [Hb Hsl]. cbn in Hsn, Hb, Hsl.
    pose proof (z_tk s Z i _ Hi eq_refl) as Hkin. cbn in Hkin.
    constructor; cbn [lens stores lk hcur resizing spec hist froz cnt hths].
    + refine (upd_all _ _ _ _ (z_tk s Z) _). intros _. exact Hkin.
    + refine (upd_all _ _ _ _ (z_snap s Z) _). intros _. exact Hsl.
    + set (old := stores s (hsnap t) (hkey t)). set (new := hfun t old).
      change (zsum _ ?l) with (zsum (owed s) l). rewrite (zsum_upd (owed s) _ _ i _ Hi).
      unfold owed at 2 3. cbn. rewrite Hsn, Nat.eqb_refl, delta_b2z. pose proof (z_cur s Z) as Hc. unfold nb in *. cbn [stores].
      rewrite (count_change_at (fun k => is_some (stores s (hcur s) k)) _ (hkey t) KU KU_nodup Hkin).
      * unfold upd_store, upd_fun. rewrite Nat.eqb_refl, Z.eqb_refl. fold new. unfold old. rewrite Hsn. lia.
      * intros k Hk. unfold upd_store, upd_fun. rewrite Nat.eqb_refl.
        destruct (Z.eqb_spec k (hkey t)); [contradiction|reflexivity].
    + refine (upd_all _ _ _ _ _ _); [|discriminate]. intros jr r Hjr Hpr.
      rewrite (z_rs s Z jr r Hjr Hpr). unfold copied_count. f_equal. f_equal.
      destruct (iv_rs hidx s I jr r Hjr Hpr) as (Hrs & _).
      pose proof (iv_adm hidx s I i _ jr r Hi Hjr eq_refl Hsn Hpr) as Hnc. cbn in Hnc. rewrite Hb, Hsn in Hnc.
      apply filter_ext. intros k. cbn [stores]. change (bidx_of hidx _ (hsnap r) k) with (bidx_of hidx s (hsnap r) k).
      unfold upd_store, upd_fun. rewrite Hrs, Hsn, Nat.eqb_refl.
      destruct (Z.eqb_spec k (hkey t)) as [->|]; [|reflexivity]. rewrite !Hnc. reflexivity.
    + intros g k. unfold upd_store, upd_fun. destruct (Nat.eqb g (hsnap t)); [|apply (z_keys s Z)].
      destruct (Z.eqb_spec k (hkey t)) as [->|]; [intros _; exact Hkin|apply (z_keys s Z)].
  - (* W5 *) apply (hs_frame Z Hi); side. intros _. exact (z_snap s Z i _ Hi eq_refl).
  - (* Wadd: the writer pays what it owes, to the table it updated *)
    apply (hs_frame Z Hi); side.
    unfold owed. cbn. rewrite (Nat.eqb_sym (hcur s)). destruct (Nat.eqb (hsnap t) (hcur s)); lia.
  - (* W6 *) destruct o; apply (hs_frame Z Hi); side.
  - (* R0 *) destruct (resizing s); [|destruct o]; apply (hs_frame Z Hi); side.
    intros _. unfold copied_count. cbn. rewrite filter_false. reflexivity.
  - (* Rwait *) destruct (resizing s); [exact Z|]. destruct (hretry t); apply (hs_frame Z Hi); side.
  - (* R1: the bucket copied now is disjoint from those copied before *)
    pose proof (z_rs s Z i _ Hi eq_refl) as Hcnt. cbn in Hcnt.
    destruct (forallb (hcop t) (seq 0 (len_of s (hsnap t)))); [apply (hs_frame Z Hi); side; intros _; exact Hcnt|].
    destruct (Nat.ltb o (len_of s (hsnap t))); cbn [andb]; [|exact Z].
    destruct (hcop t o) eqn:Eco; cbn [negb andb]; [exact Z|].
    destruct (lk s (hsnap t) o); cbn [negb]; [exact Z|].
    apply (hs_frame Z Hi); side.
    intros _. rewrite Hcnt. unfold copied_count. cbn. rewrite <- Nat2Z.inj_add. f_equal.
    rewrite <- (count_disjoint (fun k => hcop t (bidx_of hidx s (hsnap t) k)) (fun k => Nat.eqb (bidx_of hidx s (hsnap t) k) o)
                            (fun k => is_some (stores s (hsnap t) k)) KU).
    + f_equal. apply filter_ext. intros k. destruct (Nat.eqb_spec (bidx_of hidx s (hsnap t) k) o) as [->|]; [rewrite Eco|rewrite orb_false_r]; reflexivity.
    + intros k. destruct (Nat.eqb_spec (bidx_of hidx s (hsnap t) k) o) as [->|]; [rewrite Eco; reflexivity|apply andb_false_r].
  - (* R2: the new table starts with the number of entries copied; nobody owes it anything *)
    destruct (iv_rs hidx s I i _ Hi eq_refl) as (Hsn & Hfull & _ & Hnt). cbn in Hsn, Hfull, Hnt. specialize (Hfull eq_refl).
    constructor; cbn [lens stores lk hcur resizing spec hist froz cnt hths].
    + refine (upd_all _ _ _ _ (z_tk s Z) _). exact (z_tk s Z i _ Hi).
    + refine (upd_all _ _ _ _ _ _); [|discriminate]. intros j u Hj Hpu. rewrite app_length. pose proof (z_snap s Z j u Hj Hpu). lia.
    + rewrite Nat.eqb_refl, zsum_zero.
      * pose proof (z_rs s Z i _ Hi eq_refl) as Hcnt. cbn in Hcnt. rewrite Hcnt. unfold copied_count, nb. cbn. rewrite Z.add_0_r. f_equal. f_equal.
        apply filter_ext. intros k. unfold upd_store. rewrite Nat.eqb_refl, Hnt, Hsn, (Hfull _ (bidx_lt hidx s (hcur s) k (iv_len hidx s I))). reflexivity.
      * refine (upd_all _ _ _ _ _ _); [|reflexivity]. intros j u Hj. unfold owed. cbn [hcur].
        destruct (pending u) eqn:Epu; [|reflexivity]. pose proof (z_snap s Z j u Hj Epu) as Hl.
        destruct (Nat.eqb_spec (hsnap u) (length (lens s))); [lia|reflexivity].
    + intros jr r Hjr Hpr. destruct (nth_upd_cases _ _ _ _ _ Hjr) as [[_ ->]|[Hne Hjr']]; [discriminate Hpr|].
      assert (Hrr : resz r = true) by (unfold resz; destruct (hpc_ r); try discriminate Hpr; reflexivity).
      destruct (Hne (resz_one hidx s I jr r i _ Hjr' Hi Hrr eq_refl)).
    + intros g k. unfold upd_store. destruct (Nat.eqb g (length (lens s))); [|apply (z_keys s Z)].
      rewrite Hnt. destruct (hcop t (bidx_of hidx s (hsnap t) k)); [apply (z_keys s Z)|intros Hc; contradiction].
  - (* R3 *) destruct (hretry t); apply (hs_frame Z Hi); side.
  - (* HDone *) exact Z.
  - (* G0 *) apply (hs_frame Z Hi); side.
  - (* G1 *) apply (hs_frame Z Hi); side.
  - (* GDone *) exact Z.
  - (* I0 *) apply (hs_frame Z Hi); side.
  - (* I1 *) destruct (Nat.ltb (hbi t) (len_of s (hsnap t))); [destruct (lk s (hsnap t) (hbi t)); [exact Z|]|];
      apply (hs_frame Z Hi); side.
  - (* IDone *) exact Z.
Qed.

Lemma HSInv_run sched : forall s, HCInv hidx s -> HSInv s -> HSInv (hrun hidx KU s sched).
Proof.
  induction sched as [|e sched IH]; intros s I Z; [exact Z|]. cbn [hrun fold_left].
  apply IH; [apply HCInv_step; exact I|apply HSInv_step; assumption].
Qed.

Definition writes_in (o : hop) : Prop := match o with HCompute k _ => In k KU | _ => True end.

Lemma HSInv_init n0 ops : Forall writes_in ops -> HSInv (hinit n0 ops).
Proof.
  intros Hk. rewrite Forall_forall in Hk.
  constructor.
  - refine (init_all _ _ _ _). intros [| |] Hin; try discriminate. intros _. exact (Hk _ Hin).
  - refine (init_all _ _ _ _). intros [| |]; discriminate.
  - cbn [hinit cnt hcur]. rewrite zsum_zero.
    + unfold nb. cbn [hinit stores]. rewrite filter_false. reflexivity.
    + refine (init_all n0 _ _ _). intros [| |]; reflexivity.
  - refine (init_all _ _ _ _). intros [| |]; discriminate.
  - intros g k H. cbn in H. contradiction.
Qed.

Lemma conc_size_inv n0 ops sched : 1 <= n0 -> Forall writes_in ops -> HSInv (hrun hidx KU (hinit n0 ops) sched).
Proof. intros Hn Hk. apply HSInv_run; [apply HCInv_init; exact Hn|apply HSInv_init; exact Hk]. Qed.

(* at every moment: the counter plus what the writers that updated the current table still owe it *)
Theorem conc_size_accounted n0 ops sched : 1 <= n0 -> Forall writes_in ops ->
  let s := hrun hidx KU (hinit n0 ops) sched in
  (cnt s (hcur s) + zsum (owed s) (hths s))%Z = nb s (hcur s).
Proof. intros Hn Hk s. exact (z_cur s (conc_size_inv n0 ops sched Hn Hk)). Qed.

(* so once every call has returned, the counter of the current table — what Size() reports — is the
   number of keys bound in it *)
Corollary conc_size_exact n0 ops sched : 1 <= n0 -> Forall writes_in ops ->
  let s := hrun hidx KU (hinit n0 ops) sched in
  (forall j t, nth_error (hths s) j = Some t -> pending t = false) ->
  cnt s (hcur s) = nb s (hcur s).
Proof.
  intros Hn Hk s Hq. pose proof (conc_size_accounted n0 ops sched Hn Hk) as Hc. cbv zeta in Hc. fold s in Hc. rewrite zsum_zero in Hc; [lia|].
  intros j t Hj. unfold owed. rewrite (Hq j t Hj). reflexivity.
Qed.

(* ... and [nb] really is the number of keys: no key outside the run's key set is ever bound *)
Theorem conc_bound_keys_known n0 ops sched g k : 1 <= n0 -> Forall writes_in ops ->
  stores (hrun hidx KU (hinit n0 ops) sched) g k <> None -> In k KU.
Proof. intros Hn Hk. exact (z_keys _ (conc_size_inv n0 ops sched Hn Hk) g k). Qed.

End Size.
