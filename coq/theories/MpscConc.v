(* The chunked queue under CONCURRENT producers, at the granularity the code offers: a push is
   "reserve" (everything up to and including the winning producer-index CAS; a growth step is part
   of it) followed later by "publish" (the slot store); any number of producers may sit between the
   two.  For every interleaving the queue is a FIFO of RESERVATIONS: elements come out exactly
   once, in reservation order (hence in each producer's program order), the consumer waits at a
   reserved, unpublished cell and never skips it, and an offer is refused exactly when the queue
   holds its maximum.  Complete pushes and pops (C16_seq_fifo) are the case in which every
   reservation is published before the next operation starts; it is derived at the end. *)
From Otter Require Import Base Sketch SketchProofs Mpsc MpscFifo.
From Coq Require Import ZifyBool ZifyNat.
Local Open Scope Z_scope.

(* a cell of the queue's contents: published value, or reserved and not yet published;
   the contents of one buffer: a window of 2^k consecutive (half) indices starting at [lo] *)

Definition cell := option Z.
Definition clen (l : list cell) : Z := Z.of_nat (length l).

Definition cwant (lo : Z) (items : list cell) (jump : bool) (a : Z) : slot :=
  if a <? lo + clen items then
    match nth (Z.to_nat (a - lo)) items None with Some v => SElem v | None => SNil end
  else if jump && (a =? lo + clen items) then SJump else SNil.

Definition cbufok (bs : list slot) (k lo : Z) (items : list cell) (jump : bool) (link : slot) : Prop :=
  0 <= k /\ Z.of_nat (length bs) = 2 ^ k + 1 /\
  nth (Z.to_nat (2 ^ k)) bs SNil = link /\
  clen items + (if jump then 1 else 0) <= 2 ^ k /\
  forall a, lo <= a < lo + 2 ^ k -> nth (Z.to_nat (a mod 2 ^ k)) bs SNil = cwant lo items jump a.

Definition slot_of (c : cell) : slot := match c with Some v => SElem v | None => SNil end.

Lemma clen_nonneg (l : list cell) : 0 <= clen l.
Proof. unfold clen. lia. Qed.
Lemma clen_app (l1 l2 : list cell) : clen (l1 ++ l2) = clen l1 + clen l2.
Proof. unfold clen. rewrite app_length. lia. Qed.
Lemma clen_cons c (l : list cell) : clen (c :: l) = 1 + clen l.
Proof. unfold clen. cbn [length]. lia. Qed.

Lemma clen_some items : clen (map Some items) = zlen items.
Proof. unfold clen, zlen. rewrite map_length. reflexivity. Qed.

Lemma bufok_cells bs k lo items jump link :
  bufok bs k lo items jump link <-> cbufok bs k lo (map Some items) jump link.
Proof.
  pose proof (clen_some items) as El.
  assert (Ew : forall a, lo <= a -> cwant lo (map Some items) jump a = want lo items jump a).
  { intros a Ha. unfold cwant, want. rewrite El. destruct (Z.ltb_spec a (lo + zlen items)) as [H|H]; [|reflexivity].
    change None with (@None Z). rewrite (nth_indep _ None (Some 0)) by (rewrite map_length; unfold zlen in H; lia).
    rewrite map_nth. reflexivity. }
  unfold bufok, cbufok. rewrite El. split; intros (H1 & H2 & H3 & H4 & H5); repeat (split; [assumption|]);
    intros a Ha; [rewrite Ew by lia|rewrite <- Ew by lia]; apply H5; exact Ha.
Qed.

Lemma cbufok_head bs k lo c items jump link :
  cbufok bs k lo (c :: items) jump link -> nth (Z.to_nat (lo mod 2 ^ k)) bs SNil = slot_of c.
Proof.
  intros (Hk & _ & _ & _ & Hw). pose proof (pow2_pos k Hk). pose proof (clen_nonneg items).
  rewrite (Hw lo) by lia. unfold cwant. rewrite clen_cons. replace (lo <? lo + (1 + clen items)) with true by lia.
  rewrite Z.sub_diag. reflexivity.
Qed.

Lemma cbufok_nil bs k lo jump link :
  cbufok bs k lo [] jump link -> nth (Z.to_nat (lo mod 2 ^ k)) bs SNil = if jump then SJump else SNil.
Proof.
  intros (Hk & _ & _ & _ & Hw). pose proof (pow2_pos k Hk). rewrite (Hw lo) by lia. unfold cwant.
  change (clen []) with 0. rewrite Z.add_0_r, Z.ltb_irrefl, Z.eqb_refl. destruct jump; reflexivity.
Qed.

(* one store, after which the window may have moved: every index of the new window but the one
   stored to was in the old window and is wanted as before *)
Lemma cbufok_store bs k lo items jump link x sv lo' items' (jump' : bool) :
  cbufok bs k lo items jump link ->
  lo' <= x < lo' + 2 ^ k ->
  clen items' + (if jump' then 1 else 0) <= 2 ^ k ->
  (forall a, lo' <= a < lo' + 2 ^ k ->
     if a =? x then cwant lo' items' jump' a = sv
     else lo <= a < lo + 2 ^ k /\ cwant lo' items' jump' a = cwant lo items jump a) ->
  cbufok (upd (Z.to_nat (x mod 2 ^ k)) sv bs) k lo' items' jump' link.
Proof.
  intros (Hk & Hlen & Hlink & _ & Hw) Hx Hfit Hc. pose proof (pow2_pos k Hk) as Hp.
  pose proof (Z.mod_pos_bound x (2 ^ k) Hp) as Hb.
  split; [assumption|]. split; [rewrite upd_length; assumption|].
  split; [rewrite nth_upd_other by lia; assumption|]. split; [assumption|].
  intros a Ha. pose proof (Z.mod_pos_bound a (2 ^ k) Hp). generalize (Hc a Ha).
  destruct (Z.eqb_spec a x) as [->|Hne]; [intros ->; apply nth_upd_same; lia|].
  intros [Hin ->]. rewrite nth_upd_other; [apply Hw, Hin|].
  intros E. apply Hne. apply (mod_window_inj (2 ^ k) lo'); lia.
Qed.

(* the window moves one step, over the slot the first cell frees *)
Lemma cbufok_pop bs k lo c items jump link :
  cbufok bs k lo (c :: items) jump link ->
  cbufok (upd (Z.to_nat (lo mod 2 ^ k)) SNil bs) k (lo + 1) items jump link.
Proof.
  intros H. pose proof H as (Hk & _ & _ & Hfit & _). pose proof (pow2_pos k Hk).
  rewrite clen_cons in Hfit. pose proof (clen_nonneg items).
  rewrite <- (Z_mod_plus_full lo 1 (2 ^ k)). apply (cbufok_store _ _ _ _ _ _ _ _ _ _ _ H); [lia|lia|].
  intros a Ha. destruct (Z.eqb_spec a (lo + 1 * 2 ^ k)) as [->|Hne]; unfold cwant.
  - replace (lo + 1 * 2 ^ k <? lo + 1 + clen items) with false by (destruct jump; lia).
    destruct jump; [|reflexivity]. replace (lo + 1 * 2 ^ k =? lo + 1 + clen items) with false by lia. reflexivity.
  - split; [lia|]. rewrite clen_cons, Z.add_assoc. destruct (a <? lo + 1 + clen items); [|reflexivity].
    replace (Z.to_nat (a - lo)) with (S (Z.to_nat (a - (lo + 1)))) by lia. reflexivity.
Qed.

(* reserving the next cell changes no slot *)
Lemma cbufok_reserve bs k lo items link :
  cbufok bs k lo items false link -> clen items + 1 <= 2 ^ k ->
  cbufok bs k lo (items ++ [None]) false link.
Proof.
  intros (Hk & Hlen & Hlink & Hfit & Hw) Hroom.
  split; [assumption|]. split; [assumption|]. split; [assumption|].
  rewrite clen_app. change (clen [None]) with 1. split; [lia|].
  intros a Ha. rewrite (Hw a Ha). unfold cwant. rewrite clen_app. change (clen [None]) with 1. cbn [andb].
  destruct (Z.ltb_spec a (lo + clen items)) as [H1|H1].
  - replace (a <? lo + (clen items + 1)) with true by lia. rewrite app_nth1 by (unfold clen in H1; lia). reflexivity.
  - destruct (a <? lo + (clen items + 1)); [|reflexivity].
    rewrite app_nth2 by (unfold clen in H1; lia).
    destruct (Z.to_nat (a - lo) - length items)%nat as [|[|?]]; reflexivity.
Qed.

Lemma cbufok_publish bs k lo items jump link j v :
  cbufok bs k lo items jump link -> (j < length items)%nat -> nth j items None = None ->
  cbufok (upd (Z.to_nat ((lo + Z.of_nat j) mod 2 ^ k)) (SElem v) bs) k lo (upd j (Some v) items) jump link.
Proof.
  intros H Hj Hn. pose proof H as (_ & _ & _ & Hfit & _).
  assert (El : clen (upd j (Some v) items) = clen items) by (unfold clen; rewrite upd_length; reflexivity).
  assert (Hjj : Z.of_nat j < clen items) by (unfold clen; lia).
  apply (cbufok_store _ _ _ _ _ _ _ _ _ _ _ H); [destruct jump; lia|rewrite El; exact Hfit|].
  intros a Ha. unfold cwant. rewrite El. destruct (Z.eqb_spec a (lo + Z.of_nat j)) as [->|Hne].
  - replace (lo + Z.of_nat j <? lo + clen items) with true by lia.
    replace (Z.to_nat (lo + Z.of_nat j - lo)) with j by lia. rewrite nth_upd_same by assumption. reflexivity.
  - split; [exact Ha|]. destruct (a <? lo + clen items); [|reflexivity]. rewrite nth_upd_other by lia. reflexivity.
Qed.

(* the link slot lies outside the window *)
Lemma cbufok_relink bs k lo items jump link lk :
  cbufok bs k lo items jump link -> cbufok (upd (Z.to_nat (2 ^ k)) lk bs) k lo items jump lk.
Proof.
  intros (Hk & Hlen & Hlink & Hfit & Hw). pose proof (pow2_pos k Hk) as Hp.
  split; [assumption|]. split; [rewrite upd_length; assumption|].
  split; [apply nth_upd_same; lia|]. split; [assumption|].
  intros a Ha. pose proof (Z.mod_pos_bound a (2 ^ k) Hp). rewrite nth_upd_other by lia. apply Hw; assumption.
Qed.

(* a buffer that is left behind: link to the next one, jump marker in the first free slot *)
Lemma cbufok_jump bs k lo items lk :
  cbufok bs k lo items false SNil -> clen items + 1 <= 2 ^ k ->
  cbufok (upd (Z.to_nat ((lo + clen items) mod 2 ^ k)) SJump (upd (Z.to_nat (2 ^ k)) lk bs)) k lo items true lk.
Proof.
  intros H Hroom. apply (cbufok_relink _ _ _ _ _ _ lk) in H. pose proof (clen_nonneg items).
  apply (cbufok_store _ _ _ _ _ _ _ _ _ _ _ H); [lia|lia|].
  intros a Ha. unfold cwant. destruct (Z.eqb_spec a (lo + clen items)) as [->|Hne];
    [rewrite Z.ltb_irrefl; reflexivity|split; [exact Ha|reflexivity]].
Qed.

Lemma cbufok_empty k lo : 0 <= k -> cbufok (repeat SNil (Z.to_nat (2 ^ k + 1))) k lo [] false SNil.
Proof.
  intros Hk. pose proof (pow2_pos k Hk) as Hp.
  assert (Hnr : forall n i, nth i (repeat SNil n) SNil = SNil) by (induction n; intros [|i]; cbn; auto).
  split; [assumption|]. split; [rewrite repeat_length; lia|].
  split; [apply Hnr|]. split; [change (clen []) with 0; lia|].
  intros a Ha. rewrite Hnr. unfold cwant. change (clen []) with 0. replace (a <? lo + 0) with false by lia. reflexivity.
Qed.

Lemma cbufok_push bs k lo items link v :
  cbufok bs k lo items false link -> clen items + 1 <= 2 ^ k ->
  cbufok (upd (Z.to_nat ((lo + clen items) mod 2 ^ k)) (SElem v) bs) k lo (items ++ [Some v]) false link.
Proof.
  intros H Hroom. apply (cbufok_reserve _ _ _ _ _ H) in Hroom.
  apply (cbufok_publish _ _ _ _ _ _ (length items) v) in Hroom.
  - rewrite upd_snoc in Hroom. exact Hroom.
  - rewrite app_length. cbn [length]. lia.
  - rewrite app_nth2, Nat.sub_diag by lia. reflexivity.
Qed.

Lemma cbufok_fresh k lo v :
  0 <= k ->
  cbufok (upd (Z.to_nat (lo mod 2 ^ k)) (SElem v) (repeat SNil (Z.to_nat (2 ^ k + 1)))) k lo [Some v] false SNil.
Proof.
  intros Hk. pose proof (pow2_pos k Hk).
  pose proof (cbufok_push _ _ _ _ _ v (cbufok_empty k lo Hk) ltac:(change (clen []) with 0; lia)) as H0.
  change (clen []) with 0 in H0. rewrite Z.add_0_r in H0. exact H0.
Qed.

Lemma bufok_pop bs k lo v items jump link :
  bufok bs k lo (v :: items) jump link ->
  nth (Z.to_nat (lo mod 2 ^ k)) bs SNil = SElem v /\
  bufok (upd (Z.to_nat (lo mod 2 ^ k)) SNil bs) k (lo + 1) items jump link.
Proof.
  rewrite !bufok_cells. intros H. exact (conj (cbufok_head _ _ _ _ _ _ _ H) (cbufok_pop _ _ _ _ _ _ _ H)).
Qed.

Lemma bufok_push bs k lo items link v :
  bufok bs k lo items false link -> zlen items + 1 <= 2 ^ k ->
  bufok (upd (Z.to_nat ((lo + zlen items) mod 2 ^ k)) (SElem v) bs) k lo (items ++ [v]) false link.
Proof.
  rewrite !bufok_cells, map_app, <- clen_some. apply cbufok_push.
Qed.

Lemma bufok_jump bs k lo items lk :
  bufok bs k lo items false SNil -> zlen items + 1 <= 2 ^ k ->
  bufok (upd (Z.to_nat ((lo + zlen items) mod 2 ^ k)) SJump (upd (Z.to_nat (2 ^ k)) lk bs)) k lo items true lk.
Proof.
  rewrite !bufok_cells, <- clen_some. apply cbufok_jump.
Qed.

Lemma bufok_fresh k lo v :
  0 <= k ->
  bufok (upd (Z.to_nat (lo mod 2 ^ k)) (SElem v) (repeat SNil (Z.to_nat (2 ^ k + 1)))) k lo [v] false SNil.
Proof. intros Hk. apply bufok_cells, cbufok_fresh, Hk. Qed.

Lemma bufok_empty k lo : 0 <= k -> bufok (repeat SNil (Z.to_nat (2 ^ k + 1))) k lo [] false SNil.
Proof. intros Hk. apply bufok_cells, cbufok_empty, Hk. Qed.

(* the chain of buffers from the consumer's buffer to the producers' buffer: one segment of the
   queue's contents per buffer; [base] describes the last (producers') buffer *)

Fixpoint cchain (base : nat -> Z -> Z -> list cell -> Prop) (bufs : list (list slot))
    (segs : list (list cell)) (b : nat) (k lo : Z) : Prop :=
  match segs with
  | [] => False
  | s :: rest =>
      match rest with
      | [] => base b k lo s
      | _ :: _ => cbufok (nth b bufs []) k lo s true (SNext (S b)) /\
                  cchain base bufs rest (S b) (k + 1) (lo + clen s)
      end
  end.

Lemma cchain_cons (base : nat -> Z -> Z -> list cell -> Prop) (bufs : list (list slot)) s rest b k lo :
  rest <> [] ->
  cchain base bufs (s :: rest) b k lo =
  (cbufok (nth b bufs []) k lo s true (SNext (S b)) /\ cchain base bufs rest (S b) (k + 1) (lo + clen s)).
Proof. destruct rest; [contradiction|reflexivity]. Qed.

Lemma snoc_nonnil {A} (f : list A) x : f ++ [x] <> [].
Proof. destruct f; discriminate. Qed.

Lemma cchain_last (base : nat -> Z -> Z -> list cell -> Prop) (bufs : list (list slot)) (front : list (list cell)) (sl : list cell) : forall b k lo,
  cchain base bufs (front ++ [sl]) b k lo ->
  base (b + length front)%nat (k + Z.of_nat (length front)) (lo + clen (concat front)) sl.
Proof.
  induction front as [|s f IH]; intros b k lo H.
  - change (clen (concat [])) with 0. rewrite Nat.add_0_r, !Z.add_0_r. exact H.
  - cbn [app] in H. rewrite cchain_cons in H by apply snoc_nonnil. destruct H as [_ H]. apply IH in H.
    cbn [length concat]. rewrite clen_app, Z.add_assoc, Nat.add_succ_r, Nat2Z.inj_succ, <- Z.add_1_l, (Z.add_assoc k). exact H.
Qed.

Lemma cchain_ext (base base' : nat -> Z -> Z -> list cell -> Prop) (bufs bufs' : list (list slot)) (front : list (list cell)) (sl : list cell) (newlast : list (list cell)) : forall b k lo,
  newlast <> [] ->
  (forall i, (b <= i < b + length front)%nat -> nth i bufs' [] = nth i bufs []) ->
  cchain base' bufs' newlast (b + length front)%nat (k + Z.of_nat (length front)) (lo + clen (concat front)) ->
  cchain base bufs (front ++ [sl]) b k lo -> cchain base' bufs' (front ++ newlast) b k lo.
Proof.
  induction front as [|s f IH]; intros b k lo Hnl Hf Hcb H.
  - change (clen (concat [])) with 0 in Hcb. cbn [length] in Hcb. rewrite Nat.add_0_r, !Z.add_0_r in Hcb. exact Hcb.
  - cbn [app] in *. rewrite cchain_cons in H by apply snoc_nonnil. destruct H as [H1 H].
    rewrite cchain_cons by (destruct f; [exact Hnl|discriminate]). split; [rewrite Hf by (cbn [length]; lia); assumption|].
    apply IH; [assumption|intros i Hi; apply Hf; cbn [length]; lia| |assumption].
    cbn [length concat] in Hcb. rewrite clen_app, Z.add_assoc, Nat.add_succ_r, Nat2Z.inj_succ, <- Z.add_1_l, (Z.add_assoc k) in Hcb. exact Hcb.
Qed.

(* a ticket: the absolute half index of a cell *)

Fixpoint seg_index (segs : list (list cell)) (lo t : Z) : nat :=
  match segs with
  | [] => 0
  | s :: rest => if t <? lo + clen s then 0%nat else S (seg_index rest (lo + clen s) t)
  end.

Definition cell_at (segs : list (list cell)) (lo t : Z) : cell := nth (Z.to_nat (t - lo)) (concat segs) None.

Fixpoint publish_at (segs : list (list cell)) (lo t v : Z) : list (list cell) :=
  match segs with
  | [] => []
  | s :: rest => if t <? lo + clen s then upd (Z.to_nat (t - lo)) (Some v) s :: rest
                 else s :: publish_at rest (lo + clen s) t v
  end.

Definition loc (segs : list (list cell)) (b : nat) (k lo t : Z) : nat * nat :=
  ((b + seg_index segs lo t)%nat, Z.to_nat (t mod 2 ^ (k + Z.of_nat (seg_index segs lo t)))).

Lemma concat_publish_at : forall segs lo t v,
  lo <= t < lo + clen (concat segs) ->
  concat (publish_at segs lo t v) = upd (Z.to_nat (t - lo)) (Some v) (concat segs).
Proof.
  induction segs as [|s rest IH]; intros lo t v Ht; [change (clen (concat [])) with 0 in Ht; lia|].
  cbn [publish_at concat] in *. pose proof (clen_nonneg s). rewrite clen_app in Ht.
  destruct (Z.ltb_spec t (lo + clen s)) as [E|E]; cbn [concat].
  - rewrite upd_app1 by (unfold clen, cell in E; lia). reflexivity.
  - rewrite (IH (lo + clen s) t v) by lia. rewrite <- upd_app2. f_equal. unfold clen, cell in *. lia.
Qed.

Lemma seg_index_lt : forall segs lo t, segs <> [] -> t < lo + clen (concat segs) ->
  (seg_index segs lo t < length segs)%nat.
Proof.
  induction segs as [|s rest IH]; intros lo t Hne Ht; [contradiction|]. cbn [seg_index length concat] in *.
  rewrite clen_app in Ht. destruct (t <? lo + clen s) eqn:E; [lia|].
  destruct rest as [|s1 rest]; [change (clen (concat [])) with 0 in Ht; lia|].
  specialize (IH (lo + clen s) t ltac:(discriminate) ltac:(lia)). lia.
Qed.

Lemma seg_index_app : forall front rest lo t,
  seg_index (front ++ rest) lo t =
  if t <? lo + clen (concat front) then seg_index front lo t
  else (length front + seg_index rest (lo + clen (concat front)) t)%nat.
Proof.
  induction front as [|s f IH]; intros rest lo t; cbn [app concat seg_index length].
  - change (clen []) with 0. rewrite Z.add_0_r. destruct (Z.ltb_spec t lo) as [H|H]; [|reflexivity].
    destruct rest as [|s r]; [reflexivity|]. cbn [seg_index]. pose proof (clen_nonneg s).
    replace (t <? lo + clen s) with true by lia. reflexivity.
  - rewrite clen_app, Z.add_assoc, IH. pose proof (clen_nonneg (concat f)) as Hf.
    destruct (Z.ltb_spec t (lo + clen s)) as [H|H]; [replace (t <? lo + clen s + clen (concat f)) with true by lia; reflexivity|].
    destruct (t <? lo + clen s + clen (concat f)); reflexivity.
Qed.

Lemma seg_index_snoc c : forall front sl lo t,
  t < lo + clen (concat (front ++ [sl])) ->
  seg_index (front ++ [sl ++ [c]]) lo t = seg_index (front ++ [sl]) lo t.
Proof.
  intros front sl lo t. rewrite concat_app, clen_app, !seg_index_app. cbn [concat seg_index]. rewrite app_nil_r, clen_app. intros Ht.
  destruct (t <? lo + clen (concat front)); [reflexivity|]. pose proof (clen_nonneg [c]).
  replace (t <? lo + clen (concat front) + (clen sl + clen [c])) with true by lia.
  replace (t <? lo + clen (concat front) + clen sl) with true by lia. reflexivity.
Qed.

Lemma seg_index_end c : forall front sl lo,
  seg_index (front ++ [sl ++ [c]]) lo (lo + clen (concat (front ++ [sl]))) = length front.
Proof.
  intros front sl lo. rewrite concat_app, clen_app, seg_index_app. cbn [concat seg_index]. rewrite app_nil_r, clen_app. change (clen [c]) with 1.
  pose proof (clen_nonneg sl). replace (_ <? lo + clen (concat front)) with false by lia.
  replace (_ <? _) with true by lia. apply Nat.add_0_r.
Qed.

Lemma seg_index_snoc2 c : forall front sl lo t,
  t < lo + clen (concat (front ++ [sl])) ->
  seg_index (front ++ [sl; [c]]) lo t = seg_index (front ++ [sl]) lo t.
Proof.
  intros front sl lo t Ht. change [sl; [c]] with ([sl] ++ [[c]]). rewrite app_assoc, seg_index_app.
  replace (t <? _) with true by lia. reflexivity.
Qed.

Lemma seg_index_publish v t0 : forall segs lo t,
  seg_index (publish_at segs lo t0 v) lo t = seg_index segs lo t.
Proof.
  induction segs as [|s rest IH]; intros lo t; [reflexivity|]. cbn [publish_at].
  destruct (t0 <? lo + clen s); cbn [seg_index].
  - unfold clen. rewrite upd_length. reflexivity.
  - destruct (t <? lo + clen s); [reflexivity|]. f_equal. apply IH.
Qed.

Lemma seg_index_pop c s' rest lo t :
  seg_index (s' :: rest) (lo + 1) t = seg_index ((c :: s') :: rest) lo t.
Proof. cbn [seg_index]. rewrite clen_cons, Z.add_assoc. reflexivity. Qed.

Lemma seg_index_jump r lo t : lo <= t -> seg_index ([] :: r) lo t = S (seg_index r lo t).
Proof.
  intros Ht. cbn [seg_index]. change (clen []) with 0. rewrite Z.add_0_r.
  replace (t <? lo) with false by lia. reflexivity.
Qed.

Lemma cell_at_snoc (front : list (list cell)) sl c lo t :
  lo <= t < lo + clen (concat (front ++ [sl])) ->
  cell_at (front ++ [sl ++ [c]]) lo t = cell_at (front ++ [sl]) lo t.
Proof.
  intros Ht. unfold cell_at. rewrite concat_snoc. apply app_nth1. unfold clen in Ht. lia.
Qed.

Lemma cell_at_snoc2 (front : list (list cell)) sl c lo t :
  lo <= t < lo + clen (concat (front ++ [sl])) ->
  cell_at (front ++ [sl; [c]]) lo t = cell_at (front ++ [sl]) lo t.
Proof.
  intros Ht. unfold cell_at. rewrite concat_snoc2. apply app_nth1. unfold clen in Ht. lia.
Qed.

Lemma cell_at_end (front : list (list cell)) sl c lo :
  cell_at (front ++ [sl ++ [c]]) lo (lo + clen (concat (front ++ [sl]))) = c.
Proof.
  unfold cell_at. rewrite concat_snoc. rewrite app_nth2 by (unfold clen; lia).
  replace (Z.to_nat (lo + clen (concat (front ++ [sl])) - lo) - length (concat (front ++ [sl])))%nat with 0%nat by (unfold clen; lia).
  reflexivity.
Qed.

Lemma cell_at_publish segs lo t0 v t :
  lo <= t0 < lo + clen (concat segs) -> lo <= t ->
  cell_at (publish_at segs lo t0 v) lo t = if t =? t0 then Some v else cell_at segs lo t.
Proof.
  intros Ht0 Ht. unfold cell_at. rewrite concat_publish_at by assumption.
  destruct (Z.eqb_spec t t0) as [->|Hne].
  - apply nth_upd_same. unfold clen in Ht0. lia.
  - apply nth_upd_other. lia.
Qed.

(* a buffer the consumer has not reached yet starts with a published value: the element its
   growth step stored *)
Definition headed (s : list cell) : Prop := exists v r, s = Some v :: r.

Lemma tl_headed_publish : forall segs lo t v,
  Forall headed (tl segs) -> Forall headed (tl (publish_at segs lo t v)).
Proof.
  intros segs lo t v H. destruct segs as [|s rest]; [constructor|].
  cbn [publish_at]. destruct (t <? lo + clen s); [exact H|]. cbn [tl] in *.
  revert H. generalize (lo + clen s). induction rest as [|s1 rest IH]; intros lo1 H; [constructor|].
  cbn [publish_at]. inversion H as [|? ? (w & r & ->) Hr]; subst.
  destruct (t <? lo1 + clen (Some w :: r)).
  - constructor; [|assumption]. destruct (Z.to_nat (t - lo1)) as [|n]; cbn [upd]; [exists v, r|exists w, (upd n (Some v) r)]; reflexivity.
  - constructor; [exists w, r; reflexivity|]. apply IH. assumption.
Qed.

Definition cpbase (q : mpsc) (K : Z) (b : nat) (k lo : Z) (s : list cell) : Prop :=
  b = pbuf q /\ pmask q = mask_of k /\ k <= K /\
  cbufok (nth b (bufs q) []) k lo s false SNil /\
  pidx q = 2 * (lo + clen s) /\ pidx q <= 2 * lo + cap q k /\ plimit q <= 2 * lo + cap q k.

Definition QInv (q : mpsc) (segs : list (list cell)) : Prop :=
  exists k C K,
    0 <= k /\ 0 <= C /\ cidx q = 2 * C /\ cmask q = mask_of k /\ maxcap q = 2 * 2 ^ K /\
    length (bufs q) = S (pbuf q) /\
    Forall (fun s => exists v r, s = Some v :: r) (tl segs) /\
    cchain (cpbase q K) (bufs q) segs (cbuf q) k C /\
    plimit q <= cidx q + maxcap q /\ pidx q <= cidx q + maxcap q.

(* the invariant with its witnesses in the open: the consumer's buffer has 2^k slots, the consumer
   index is 2C, the queue's capacity is 2^K *)
Record QI (q : mpsc) (segs : list (list cell)) (k C K : Z) : Prop := {
  qi_k : 0 <= k;
  qi_C : 0 <= C;
  qi_cidx : cidx q = 2 * C;
  qi_cmask : cmask q = mask_of k;
  qi_maxcap : maxcap q = 2 * 2 ^ K;
  qi_bufs : length (bufs q) = S (pbuf q);
  qi_headed : Forall headed (tl segs);
  qi_chain : cchain (cpbase q K) (bufs q) segs (cbuf q) k C;
  qi_plimit : plimit q <= cidx q + maxcap q;
  qi_pidx : pidx q <= cidx q + maxcap q }.
Arguments qi_k {q segs k C K}.
Arguments qi_cidx {q segs k C K}.
Arguments qi_cmask {q segs k C K}.
Arguments qi_maxcap {q segs k C K}.
Arguments qi_chain {q segs k C K}.

Lemma QInv_QI q segs : QInv q segs <-> exists k C K, QI q segs k C K.
Proof.
  split.
  - intros (k & C & K & H1 & H2 & H3 & H4 & H5 & H6 & H7 & H8 & H9 & H10). exists k, C, K. constructor; assumption.
  - intros (k & C & K & [H1 H2 H3 H4 H5 H6 H7 H8 H9 H10]). exists k, C, K. repeat (split; [assumption|]). assumption.
Qed.

Lemma mask_of_inj k k' : 0 <= k -> 0 <= k' -> mask_of k = mask_of k' -> k = k'.
Proof. unfold mask_of. intros Hk Hk' E. apply (Z.pow_inj_r 2); lia. Qed.

Lemma cpbase_same q q' K b k lo s :
  pbuf q' = pbuf q -> pmask q' = pmask q -> pidx q' = pidx q -> plimit q' = plimit q -> maxcap q' = maxcap q ->
  nth b (bufs q') [] = nth b (bufs q) [] -> cpbase q K b k lo s -> cpbase q' K b k lo s.
Proof. unfold cpbase, cap, cur_buf_capacity. intros -> -> -> -> -> ->. exact (fun H => H). Qed.

Lemma cap_maxcap q q' k : maxcap q' = maxcap q -> cap q' k = cap q k.
Proof. unfold cap, cur_buf_capacity. intros ->. reflexivity. Qed.

Lemma cchain_same q q' K segs :
  pbuf q' = pbuf q -> pmask q' = pmask q -> pidx q' = pidx q -> plimit q' = plimit q -> maxcap q' = maxcap q ->
  forall b k lo, (forall i, (b <= i)%nat -> nth i (bufs q') [] = nth i (bufs q) []) ->
  cchain (cpbase q K) (bufs q) segs b k lo -> cchain (cpbase q' K) (bufs q') segs b k lo.
Proof.
  intros E1 E2 E3 E4 E5. induction segs as [|s rest IH]; intros b k lo Hf H; [exact H|].
  destruct rest as [|s1 rest]; [exact (cpbase_same q q' K b k lo s E1 E2 E3 E4 E5 (Hf b (le_n b)) H)|].
  rewrite cchain_cons in * by discriminate. destruct H as [H1 H2]. split; [rewrite Hf by lia; exact H1|].
  apply IH; [intros i Hi; apply Hf; lia|exact H2].
Qed.

Lemma cchain_head_buf q K segs b k lo :
  0 <= k -> cchain (cpbase q K) (bufs q) segs b k lo ->
  Z.of_nat (length (nth b (bufs q) [])) = 2 ^ k + 1 /\ (b < length (bufs q))%nat.
Proof.
  intros Hk H. assert (Hl : Z.of_nat (length (nth b (bufs q) [])) = 2 ^ k + 1).
  { destruct segs as [|s [|s1 r]]; [destruct H|destruct H as (_ & _ & _ & (_ & Hl & _) & _)|destruct H as [(_ & Hl & _) _]]; exact Hl. }
  split; [exact Hl|]. destruct (Nat.lt_ge_cases b (length (bufs q))) as [Hlt|Hge]; [assumption|].
  rewrite (nth_overflow (bufs q) [] Hge) in Hl. pose proof (pow2_pos k Hk). cbn [length] in Hl. lia.
Qed.

(* the first segment loses its first cell or has a hole filled *)
Lemma cchain_head_change q q' K s s' rest b k lo lo' :
  pbuf q' = pbuf q -> pmask q' = pmask q -> pidx q' = pidx q -> plimit q' = plimit q -> maxcap q' = maxcap q ->
  (forall i, (b < i)%nat -> nth i (bufs q') [] = nth i (bufs q) []) ->
  lo <= lo' -> lo' + clen s' = lo + clen s ->
  (forall jump link, cbufok (nth b (bufs q) []) k lo s jump link -> cbufok (nth b (bufs q') []) k lo' s' jump link) ->
  cchain (cpbase q K) (bufs q) (s :: rest) b k lo -> cchain (cpbase q' K) (bufs q') (s' :: rest) b k lo'.
Proof.
  intros E1 E2 E3 E4 E5 Hf Hlo El Hbuf Hch. destruct rest as [|s1 rest].
  - destruct Hch as (Hb & Hpm & HkK & Hok & Hp). change (cpbase q' K b k lo' s'). unfold cpbase.
    rewrite E1, E2, E3, E4, (cap_maxcap q q' k E5).
    split; [exact Hb|]. split; [exact Hpm|]. split; [exact HkK|]. split; [exact (Hbuf _ _ Hok)|]. lia.
  - rewrite cchain_cons in * by discriminate. destruct Hch as [Hok Hrest]. split; [exact (Hbuf _ _ Hok)|].
    rewrite El. revert Hrest. apply cchain_same; assumption.
Qed.

Lemma qi_head {q s rest k C K} : QI q (s :: rest) k C K ->
  offset_of (cidx q) (cmask q) = Z.to_nat (C mod 2 ^ k) /\ (cbuf q < length (bufs q))%nat /\
  cbufok (nth (cbuf q) (bufs q) []) k C s (match rest with [] => false | _ => true end)
         (match rest with [] => SNil | _ => SNext (S (cbuf q)) end).
Proof.
  intros [Hk HC Hc Hcm Hmax Hlen Hne Hch Hl1 Hl2]. split; [rewrite Hc, Hcm; apply offset_of_half; lia|].
  split; [exact (proj2 (cchain_head_buf q K _ _ k C Hk Hch))|].
  destruct rest; [destruct Hch as (_ & _ & _ & Hbuf & _)|destruct Hch as [Hbuf _]]; exact Hbuf.
Qed.

Lemma qi_last {q segs k C K} : QI q segs k C K ->
  exists front sl lo, segs = front ++ [sl] /\ lo = C + clen (concat front) /\ C <= lo /\
    cpbase q K (cbuf q + length front) (k + Z.of_nat (length front)) lo sl.
Proof.
  intros H. pose proof (qi_chain H) as Hch. destruct segs as [|s0 r0]; [destruct Hch|].
  destruct (exists_last (l := s0 :: r0) ltac:(discriminate)) as (front & sl & E). rewrite E in Hch.
  exists front, sl, (C + clen (concat front)). pose proof (clen_nonneg (concat front)).
  split; [exact E|]. split; [reflexivity|]. split; [lia|]. exact (cchain_last _ _ _ _ _ _ _ Hch).
Qed.

Lemma qi_total {q segs k C K} : QI q segs k C K -> pidx q = 2 * (C + clen (concat segs)).
Proof.
  intros H. destruct (qi_last H) as (front & sl & lo & -> & -> & _ & (_ & _ & _ & _ & Hp & _)).
  rewrite concat_app. cbn [concat]. rewrite app_nil_r, clen_app, Z.add_assoc. exact Hp.
Qed.

Lemma qi_le {q segs k C K} : QI q segs k C K ->
  0 <= K /\ mpsc_capacity q = 2 ^ K /\ clen (concat segs) <= 2 ^ K.
Proof.
  intros H. pose proof (qi_total H) as Ht.
  destruct (qi_last H) as (front & sl & lo & _ & _ & _ & (_ & _ & HkK & _)).
  destruct H as [Hk HC Hc Hcm Hmax Hlen Hne Hch Hl1 Hl2].
  split; [lia|]. split; [|lia]. unfold mpsc_capacity. rewrite Hmax, Z.mul_comm. apply Z.div_mul. lia.
Qed.

Lemma mpsc_size_cabs q segs : QInv q segs -> mpsc_size q = clen (concat segs).
Proof.
  intros H. apply QInv_QI in H. destruct H as (k & C & K & H). unfold mpsc_size.
  rewrite (qi_total H), (qi_cidx H). replace (2 * (C + clen (concat segs)) - 2 * C) with (clen (concat segs) * 2) by lia.
  rewrite Z.shiftr_div_pow2 by lia. apply Z.div_mul. discriminate.
Qed.

Definition extends (segs segs' : list (list cell)) (lo : Z) (c : cell) : Prop :=
  concat segs' = concat segs ++ [c] /\
  forall t, t < lo + clen (concat segs) -> seg_index segs' lo t = seg_index segs lo t.

Lemma tl_headed_last (front : list (list cell)) sl sl' more :
  Forall headed (tl (front ++ [sl])) -> (headed sl -> headed sl') -> Forall headed more ->
  Forall headed (tl (front ++ sl' :: more)).
Proof.
  intros H Hs Hm. destruct front as [|f0 f]; [exact Hm|].
  cbn [app tl] in *. apply Forall_app in H. destruct H as [H H2].
  apply Forall_app. split; [assumption|]. constructor; [exact (Hs (Forall_inv H2))|exact Hm].
Qed.

Definition reserved (q : mpsc) (pl : Z) : mpsc :=
  mkMpsc (pidx q + 2) pl (cidx q) (pmask q) (cmask q) (pbuf q) (cbuf q) (bufs q) (maxcap q).

Lemma reserve_inv q segs k C K pl :
  QI q segs k C K ->
  pl = plimit q \/ pl = cidx q + cur_buf_capacity q (pmask q) ->
  pidx q < pl ->
  exists segs', QI (reserved q pl) segs' k C K /\ extends segs segs' C None /\
    loc segs' (cbuf q) k C (C + clen (concat segs)) = (pbuf q, offset_of (pidx q) (pmask q)).
Proof.
  intros H Hpl Hlt. pose proof (qi_total H) as Htot.
  destruct (qi_last H) as (front & sl & lo & -> & Elo & Hlo & (Hb & Hpm & HkK & Hbuf & Hp & Hp2 & Hp3)).
  destruct H as [Hk HC Hc Hcm Hmax Hlen Hne Hch Hl1 Hl2].
  set (kl := k + Z.of_nat (length front)) in *.
  assert (Hkl : 0 <= kl) by (unfold kl; lia).
  pose proof (clen_nonneg sl) as Hzs. pose proof (pow2_pos kl Hkl) as Hpk.
  rewrite Hpm in Hpl. fold (cap q kl) in Hpl.
  assert (Hpar : pidx q + 2 <= 2 * lo + cap q kl /\ pl <= 2 * lo + cap q kl /\
                 pl <= cidx q + maxcap q /\ pidx q + 2 <= cidx q + maxcap q /\ clen sl + 1 <= 2 ^ kl).
  { destruct (cap_even q K kl Hmax ltac:(lia)) as (e & Ee & He & Hcm'). clear Hch Hne Hbuf Htot. lia. }
  destruct Hpar as (A1 & A2 & A3 & A4 & A5).
  exists (front ++ [sl ++ [None]]). split; [|split; [exact (conj (concat_snoc front sl None) (seg_index_snoc None front sl C))|]].
  - constructor; try assumption.
    + apply (tl_headed_last front sl _ [] Hne); [intros (w & r & ->); exists w, (r ++ [None]); reflexivity|constructor].
    + eapply cchain_ext; [discriminate|reflexivity| |exact Hch]. rewrite <- Elo.
      split; [exact Hb|]. split; [exact Hpm|]. split; [exact HkK|]. split; [apply cbufok_reserve; assumption|].
      rewrite clen_app. change (clen [None]) with 1. cbn [reserved pidx plimit]. fold kl. change (cap (reserved q pl) kl) with (cap q kl). lia.
  - unfold loc. rewrite seg_index_end. fold kl. f_equal; [lia|].
    rewrite Hp, Hpm, offset_of_half by lia. f_equal. f_equal. lia.
Qed.

(* growing the queue: the resizing producer stores its element itself *)
Definition resized (q : mpsc) (v : Z) : mpsc :=
  let p := pidx q in
  let mask := pmask q in
  let buffer := pbuf q in
  let c := cidx q in
  let newlen := 2 * (buf_len q buffer - 1) + 1 in
  let newid := length (bufs q) in
  let newmask := Z.shiftl (newlen - 2) 1 in
  let newbuf := upd (offset_of p newmask) (SElem v) (repeat SNil (Z.to_nat newlen)) in
  let bs := bufs q ++ [newbuf] in
  let q1 := mkMpsc (pidx q) (plimit q) (cidx q) newmask (cmask q) newid (cbuf q) bs (maxcap q) in
  let bs1 := buf_set q1 buffer (next_array_offset mask) (SNext newid) in
  let avail := maxcap q - (p - c) in
  let bs2 := buf_set (with_bufs q1 bs1) buffer (offset_of p mask) SJump in
  mkMpsc (p + 2) (p + Z.min newmask avail) (cidx q) newmask (cmask q) newid (cbuf q) bs2 (maxcap q).

(* the same state in terms of the size 2^kl of the producers' buffer and of the half index x it has reached *)
Lemma resized_eq q v kl x :
  pmask q = mask_of kl -> 0 <= kl -> pidx q = 2 * x -> 0 <= x ->
  buf_len q (pbuf q) = 2 ^ kl + 1 -> (pbuf q < length (bufs q))%nat ->
  resized q v =
  let linked := upd (Z.to_nat (2 ^ kl)) (SNext (length (bufs q))) (nth (pbuf q) (bufs q) []) in
  let newbuf := upd (Z.to_nat (x mod 2 ^ (kl + 1))) (SElem v) (repeat SNil (Z.to_nat (2 ^ (kl + 1) + 1))) in
  mkMpsc (pidx q + 2) (pidx q + Z.min (mask_of (kl + 1)) (maxcap q - (pidx q - cidx q))) (cidx q)
    (mask_of (kl + 1)) (cmask q) (length (bufs q)) (cbuf q)
    (upd (pbuf q) (upd (Z.to_nat (x mod 2 ^ kl)) SJump linked) (upd (pbuf q) linked (bufs q ++ [newbuf]))) (maxcap q).
Proof.
  intros Hpm Hkl Hp Hx Hblen Hlt. pose proof (pow2_succ kl Hkl).
  unfold resized. rewrite Hblen. replace (2 * (2 ^ kl + 1 - 1) + 1) with (2 ^ (kl + 1) + 1) by lia.
  rewrite (mask_of_len (kl + 1)), Hpm, next_array_offset_half, Hp, !offset_of_half by lia. rewrite <- Hp.
  unfold buf_set, with_bufs. cbn [pidx plimit cidx pmask cmask pbuf cbuf bufs maxcap].
  rewrite (nth_upd_same (pbuf q)), app_nth1 by (rewrite ?app_length; cbn [length]; lia). reflexivity.
Qed.

Lemma cresize_inv q segs k C K v :
  QI q segs k C K ->
  plimit q <= pidx q -> cidx q + cur_buf_capacity q (pmask q) <= pidx q ->
  0 < maxcap q - (pidx q - cidx q) ->
  exists segs', QI (resized q v) segs' k C K /\ extends segs segs' C (Some v).
Proof.
  intros H Hslow Hnoroom Havail.
  destruct (qi_last H) as (front & sl & lo & -> & Elo & Hlo & (Hb & Hpm & HkK & Hbuf & Hp & Hp2 & Hp3)).
  destruct H as [Hk HC Hc Hcm Hmax Hlen Hne Hch Hl1 Hl2].
  set (kl := k + Z.of_nat (length front)) in *. set (bl := (cbuf q + length front)%nat) in *.
  assert (Hkl : 0 <= kl) by (unfold kl; lia).
  pose proof (clen_nonneg sl) as Hzs. pose proof (pow2_pos kl Hkl) as Hpk. pose proof (pow2_succ kl Hkl) as Hsucc.
  rewrite Hpm in Hnoroom. fold (cap q kl) in Hnoroom.
  (* the producers' buffer is not of the last size, and it is not full *)
  assert (Hcap : kl < K /\ cap q kl = mask_of kl).
  { destruct (cap_cases q K kl Hmax ltac:(lia)) as [(Ek & Ec)|(Ek & Ec & _)]; [rewrite Ec in Hnoroom; lia|auto]. }
  destruct Hcap as [HkK' Ec]. rewrite Ec in *.
  assert (Hroom : clen sl + 1 <= 2 ^ kl) by (unfold mask_of in Hp2; lia).
  destruct (cap_even q K (kl + 1) Hmax ltac:(lia)) as (e & Ee & He & Hcm').
  exists (front ++ [sl; [Some v]]). split; [|exact (conj (concat_snoc2 front sl (Some v)) (seg_index_snoc2 (Some v) front sl C))].
  rewrite (resized_eq q v kl (lo + clen sl)); try assumption; try lia;
    [|unfold buf_len; rewrite <- Hb; exact (proj1 (proj2 Hbuf))]. cbv zeta.
  constructor; cbn [pidx plimit cidx pmask cmask pbuf cbuf bufs maxcap]; try assumption; try lia.
  - rewrite !upd_length, app_length. cbn [length]. lia.
  - apply (tl_headed_last front sl sl [[Some v]] Hne (fun H => H)). constructor; [exists v, []; reflexivity|constructor].
  - eapply cchain_ext; [discriminate| | |exact Hch]; fold bl kl.
    + intros i Hi. rewrite !nth_upd_other by lia. apply app_nth1. lia.
    + rewrite <- Elo. rewrite cchain_cons by discriminate. split.
      * rewrite <- Hb, nth_upd_same by (rewrite upd_length, app_length; cbn [length]; lia).
        rewrite Hlen, <- Hb. apply cbufok_jump; assumption.
      * split; [cbn [pbuf]; lia|]. split; [reflexivity|]. split; [lia|]. split.
        { cbn [bufs]. rewrite !nth_upd_other, app_nth2 by lia. replace (S bl - length (bufs q))%nat with 0%nat by lia.
          apply cbufok_fresh. lia. }
        change (clen [Some v]) with 1. cbn [pidx plimit]. rewrite (cap_maxcap q) by reflexivity.
        unfold mask_of in *. lia.
Qed.

(* a reservation: refused exactly at 2^K cells, else one more cell, a hole or (after growth) the value itself *)
Theorem creserve_spec q segs k C K v : QI q segs k C K ->
  match push_reserve q v with
  | (q', RFull) => q' = q /\ clen (concat segs) = 2 ^ K
  | (q', RSlot b off) =>
      cbuf q' = cbuf q /\ exists segs', QI q' segs' k C K /\ extends segs segs' C None /\
        loc segs' (cbuf q) k C (C + clen (concat segs)) = (b, off)
  | (q', RResized) => cbuf q' = cbuf q /\ exists segs', QI q' segs' k C K /\ extends segs segs' C (Some v)
  end.
Proof.
  intros H. pose proof (qi_total H). destruct (qi_le H) as (_ & _ & Hle).
  pose proof (qi_maxcap H). pose proof (qi_cidx H). unfold push_reserve.
  destruct (plimit q <=? pidx q) eqn:E1; [destruct (cidx q + cur_buf_capacity q (pmask q) >? pidx q) eqn:E2;
    [|destruct (maxcap q - (pidx q - cidx q) <=? 0) eqn:E3]|].
  - split; [reflexivity|]. exact (reserve_inv q segs k C K _ H (or_intror eq_refl) ltac:(lia)).
  - split; [reflexivity|lia].
  - split; [reflexivity|]. exact (cresize_inv q segs k C K v H ltac:(lia) ltac:(lia) ltac:(lia)).
  - split; [reflexivity|]. exact (reserve_inv q segs k C K _ H (or_introl eq_refl) ltac:(lia)).
Qed.

Lemma publish_at_nonnil segs lo t v : segs <> [] -> publish_at segs lo t v <> [].
Proof. destruct segs as [|s r]; [contradiction|]. intros _. cbn [publish_at]. destruct (t <? lo + clen s); discriminate. Qed.

Lemma cchain_publish q K v t bi off : forall segs b k lo,
  0 <= k -> cchain (cpbase q K) (bufs q) segs b k lo ->
  lo <= t < lo + clen (concat segs) -> cell_at segs lo t = None -> loc segs b k lo t = (bi, off) ->
  cchain (cpbase (push_publish q bi off v) K) (bufs (push_publish q bi off v)) (publish_at segs lo t v) b k lo.
Proof.
  induction segs as [|s rest IH]; intros b k lo Hk Hch Ht Hcell Hloc; [destruct Hch|].
  pose proof (clen_nonneg s) as Hs. destruct (cchain_head_buf q K _ b k lo Hk Hch) as [_ Hlt].
  unfold loc, cell_at in *. cbn [concat seg_index publish_at] in *. rewrite clen_app in Ht.
  destruct (Z.ltb_spec t (lo + clen s)) as [E|E].
  - (* the ticket lies in this buffer *)
    rewrite Nat.add_0_r, Z.add_0_r in Hloc. injection Hloc as <- <-.
    set (j := Z.to_nat (t - lo)). assert (Hj : (j < length s)%nat) by (unfold clen in E; lia).
    rewrite app_nth1 in Hcell by exact Hj.
    replace (t mod 2 ^ k) with ((lo + Z.of_nat j) mod 2 ^ k) by (f_equal; lia).
    revert Hch. apply cchain_head_change; try reflexivity; try lia.
    + intros i Hi. apply nth_upd_other. lia.
    + unfold clen. rewrite upd_length. reflexivity.
    + intros jump link Hbuf. unfold push_publish, with_bufs, buf_set. cbn [bufs]. rewrite nth_upd_same by exact Hlt.
      apply cbufok_publish; assumption.
  - (* further down the chain *)
    destruct rest as [|s1 rest]; [change (clen (concat [])) with 0 in Ht; lia|].
    rewrite cchain_cons in Hch by discriminate. destruct Hch as [Hbuf Hrest].
    rewrite cchain_cons by (apply publish_at_nonnil; discriminate). split.
    + injection Hloc as <- _. unfold push_publish, with_bufs, buf_set. cbn [bufs]. rewrite nth_upd_other by lia. exact Hbuf.
    + apply IH; [lia|exact Hrest|lia| |].
      * rewrite app_nth2 in Hcell by (unfold clen in E; lia).
        replace (Z.to_nat (t - (lo + clen s))) with (Z.to_nat (t - lo) - length s)%nat by (clear; unfold clen; lia). exact Hcell.
      * rewrite <- Hloc. unfold loc. f_equal; [lia|]. f_equal. f_equal. f_equal. lia.
Qed.

Lemma publish_inv q segs k C K t b off v :
  QI q segs k C K -> C <= t < C + clen (concat segs) -> cell_at segs C t = None ->
  loc segs (cbuf q) k C t = (b, off) ->
  QI (push_publish q b off v) (publish_at segs C t v) k C K.
Proof.
  intros [Hk HC Hc Hcm Hmax Hlen Hne Hch Hl1 Hl2] Ht Hcell Hloc. constructor; try assumption.
  - unfold push_publish, with_bufs, buf_set. cbn [bufs pbuf]. rewrite upd_length. exact Hlen.
  - apply tl_headed_publish. exact Hne.
  - apply cchain_publish; assumption.
Qed.

Definition popped (q : mpsc) : mpsc :=
  mkMpsc (pidx q) (plimit q) (cidx q + 2) (pmask q) (cmask q) (pbuf q) (cbuf q)
    (buf_set q (cbuf q) (offset_of (cidx q) (cmask q)) SNil) (maxcap q).

Lemma cpop_head_inv q c s' rest k C K :
  QI q ((c :: s') :: rest) k C K ->
  buf_get q (cbuf q) (offset_of (cidx q) (cmask q)) = slot_of c /\ cidx q <> pidx q /\
  QI (popped q) (s' :: rest) k (C + 1) K.
Proof.
  intros H. pose proof (qi_total H) as Htot. destruct (qi_head H) as (Hoff & Hcb & Hbuf).
  destruct H as [Hk HC Hc Hcm Hmax Hlen Hne Hch Hl1 Hl2].
  split; [unfold buf_get; rewrite Hoff; exact (cbufok_head _ _ _ _ _ _ _ Hbuf)|]. split.
  { cbn [concat] in Htot. rewrite clen_app, clen_cons in Htot. pose proof (clen_nonneg s'). pose proof (clen_nonneg (concat rest)). lia. }
  constructor; try assumption; cbn [popped cidx plimit pidx maxcap]; try lia.
  - unfold popped, buf_set. cbn [bufs pbuf]. rewrite upd_length. exact Hlen.
  - change (cbuf (popped q)) with (cbuf q). revert Hch.
    apply cchain_head_change; try reflexivity; try lia; [|rewrite clen_cons; lia|].
    + intros i Hi. apply nth_upd_other. lia.
    + intros jump' link' Hbuf'. unfold popped, buf_set. cbn [bufs]. rewrite nth_upd_same, Hoff by exact Hcb.
      exact (cbufok_pop _ _ _ _ _ _ _ Hbuf').
Qed.

(* following the jump: the consumer moves to the next buffer *)
Definition jumped (q : mpsc) : mpsc :=
  let bs1 := buf_set q (cbuf q) (next_array_offset (cmask q)) SNil in
  let nb := S (cbuf q) in
  mkMpsc (pidx q) (plimit q) (cidx q) (pmask q)
    (Z.shiftl (Z.of_nat (length (nth nb bs1 [])) - 2) 1) (pbuf q) nb bs1 (maxcap q).

Lemma cpop_jump_inv q s2 rest k C K :
  QI q ([] :: s2 :: rest) k C K ->
  buf_get q (cbuf q) (offset_of (cidx q) (cmask q)) = SJump /\
  buf_get q (cbuf q) (next_array_offset (cmask q)) = SNext (S (cbuf q)) /\
  QI (jumped q) (s2 :: rest) (k + 1) C K /\ headed s2.
Proof.
  intros H. destruct (qi_head H) as (Hoff & Hcb & Hbuf). destruct H as [Hk HC Hc Hcm Hmax Hlen Hne Hch Hl1 Hl2].
  assert (Hlk : next_array_offset (cmask q) = Z.to_nat (2 ^ k)) by (rewrite Hcm; apply next_array_offset_half; lia).
  pose proof (pow2_pos k Hk) as Hpk.
  rewrite cchain_cons in Hch by discriminate. destruct Hch as [_ Hrest].
  change (clen []) with 0 in Hrest. rewrite Z.add_0_r in Hrest.
  destruct (cchain_head_buf q K _ _ (k + 1) C ltac:(lia) Hrest) as [Hnl _].
  unfold buf_get. rewrite Hoff, Hlk.
  split; [exact (cbufok_nil _ _ _ _ _ Hbuf)|]. split; [exact (proj1 (proj2 (proj2 Hbuf)))|]. split; [|exact (Forall_inv Hne)].
  unfold jumped, buf_set. rewrite Hlk, (nth_upd_other (cbuf q) (S (cbuf q))), Hnl, (mask_of_len (k + 1)) by lia.
  constructor; cbn [pidx plimit cidx pmask cmask pbuf cbuf bufs maxcap]; try assumption; try lia.
  - rewrite upd_length. exact Hlen.
  - exact (Forall_inv_tail Hne).
  - revert Hrest. apply cchain_same; try reflexivity. intros i Hi. apply nth_upd_other. lia.
Qed.

(* a pop, by the first cell of the contents; tickets keep their places *)
Theorem cpop_spec q segs k C K : QI q segs k C K ->
  match concat segs with
  | [] => try_pop q = (q, PopEmpty)
  | None :: _ => try_pop q = (q, PopWait)
  | Some v :: r => exists q' segs' k', try_pop q = (q', PopElem v) /\ QI q' segs' k' (C + 1) K /\ concat segs' = r /\
                     forall t, C + 1 <= t -> loc segs' (cbuf q') k' (C + 1) t = loc segs (cbuf q) k C t
  end.
Proof.
  intros H. destruct segs as [|[|c s'] rest]; [destruct (qi_chain H)| |].
  - destruct rest as [|s2 rest].
    + (* nothing reserved *)
      pose proof (qi_total H) as Ht. change (clen (concat [[]])) with 0 in Ht. pose proof (qi_cidx H).
      destruct (qi_head H) as (Hoff & _ & Hbuf).
      unfold try_pop, buf_get. rewrite Hoff, (cbufok_nil _ _ _ _ _ Hbuf).
      replace (cidx q =? pidx q) with true by lia. reflexivity.
    + destruct (cpop_jump_inv q s2 rest k C K H) as (Hslot & Hlink & HI & (v2 & s2' & ->)).
      destruct (cpop_head_inv (jumped q) (Some v2) s2' rest _ _ _ HI) as (Hslot2 & _ & HI2).
      exists (popped (jumped q)), (s2' :: rest), (k + 1). split; [|split; [exact HI2|split; [reflexivity|]]].
      * unfold try_pop. rewrite Hslot, Hlink.
        change (match buf_get (jumped q) (cbuf (jumped q)) (offset_of (cidx (jumped q)) (cmask (jumped q))) with
                | SElem v => (popped (jumped q), PopElem v)
                | _ => (with_bufs q (buf_set q (cbuf q) (next_array_offset (cmask q)) SNil), PopBroken)
                end = (popped (jumped q), PopElem v2)).
        rewrite Hslot2. reflexivity.
      * intros t Ht. unfold loc. rewrite (seg_index_pop (Some v2)), seg_index_jump by lia.
        change (cbuf (popped (jumped q))) with (S (cbuf q)).
        rewrite Nat.add_succ_comm, Nat2Z.inj_succ, <- Z.add_1_l, Z.add_assoc. reflexivity.
  - destruct (cpop_head_inv q c s' rest k C K H) as (Hslot & Hnz & HI). cbn [concat app]. unfold try_pop. rewrite Hslot.
    destruct c as [v|]; cbn [slot_of]; [|replace (cidx q =? pidx q) with false by lia; reflexivity].
    exists (popped q), (s' :: rest), k. split; [reflexivity|]. split; [exact HI|]. split; [reflexivity|].
    intros t Ht. unfold loc. rewrite (seg_index_pop (Some v)). reflexivity.
Qed.

Definition pent : Type := (Z * nat * nat * Z)%type.     (* ticket, buffer, offset, value *)
Definition tk (e : pent) : Z := let '(t, _, _, _) := e in t.

Fixpoint find_pend (t : Z) (pend : list pent) : option (nat * nat * Z) :=
  match pend with
  | [] => None
  | (t', b, off, v) :: rest => if t' =? t then Some (b, off, v) else find_pend t rest
  end.
Fixpoint remove_pend (t : Z) (pend : list pent) : list pent :=
  match pend with
  | [] => []
  | (t', b, off, v) :: rest => if t' =? t then rest else (t', b, off, v) :: remove_pend t rest
  end.

Inductive cop := CReserve (v : Z) | CPublish (t : Z) | CPop.
Inductive cout := ORefused | OTicket (t : Z) (direct : bool) | OPublished (ok : bool) | OPopped (r : popres).

Definition cstate : Type := (mpsc * list pent)%type.

Definition cstep (c : cstate) (o : cop) : cstate * cout :=
  let '(q, pend) := c in
  match o with
  | CReserve v =>
      match push_reserve q v with
      | (q', RFull) => ((q', pend), ORefused)
      | (q', RSlot b off) => ((q', pend ++ [(pidx q / 2, b, off, v)]), OTicket (pidx q / 2) false)
      | (q', RResized) => ((q', pend), OTicket (pidx q / 2) true)
      end
  | CPublish t =>
      match find_pend t pend with
      | Some (b, off, v) => ((push_publish q b off v, remove_pend t pend), OPublished true)
      | None => ((q, pend), OPublished false)
      end
  | CPop => let '(q', r) := try_pop q in ((q', pend), OPopped r)
  end.

(* the specification: the cells in reservation order, each with its value and whether it is published *)
Definition astate : Type := (Z * list (Z * bool))%type.      (* ticket of the head cell, cells *)
Definition alen (l : list (Z * bool)) : Z := Z.of_nat (length l).

Definition astep (capacity : Z) (a : astate) (o : cop) (out : cout) : option astate :=
  let '(base, cells) := a in
  match o, out with
  | CReserve v, ORefused => if alen cells =? capacity then Some a else None
  | CReserve v, OTicket t direct =>
      if (alen cells <? capacity) && (t =? base + alen cells) then Some (base, cells ++ [(v, direct)]) else None
  | CPublish t, OPublished true =>
      if (base <=? t) && (t <? base + alen cells) && negb (snd (nth (Z.to_nat (t - base)) cells (0, true)))
      then Some (base, upd (Z.to_nat (t - base)) (fst (nth (Z.to_nat (t - base)) cells (0, true)), true) cells)
      else None
  | CPublish t, OPublished false =>
      if (base <=? t) && (t <? base + alen cells) && negb (snd (nth (Z.to_nat (t - base)) cells (0, true)))
      then None else Some a                 (* not a pending ticket: nothing happens *)
  | CPop, OPopped r =>
      match cells with
      | [] => if match r with PopEmpty => true | _ => false end then Some a else None
      | (v, true) :: rest => match r with PopElem w => if w =? v then Some (base + 1, rest) else None | _ => None end
      | (v, false) :: _ => if match r with PopWait => true | _ => false end then Some a else None
      end
  | _, _ => None
  end.

(* a whole run: the concrete machine produces outputs; the specification must accept every one *)
Fixpoint explained (capacity : Z) (c : cstate) (a : astate) (ops : list cop) : Prop :=
  match ops with
  | [] => True
  | o :: rest => let '(c', out) := cstep c o in
                 match astep capacity a o out with
                 | Some a' => explained capacity c' a' rest
                 | None => False
                 end
  end.

Definition proj (c : Z * bool) : cell := if snd c then Some (fst c) else None.

Definition PendOK (q : mpsc) (segs : list (list cell)) (cells : list (Z * bool)) (pend : list pent) : Prop :=
  exists k C, 0 <= k /\ cmask q = mask_of k /\ 0 <= C /\ cidx q = 2 * C /\ NoDup (map tk pend) /\
    (forall t b off v, In (t, b, off, v) pend ->
       C <= t < C + alen cells /\ nth (Z.to_nat (t - C)) cells (0, true) = (v, false) /\
       loc segs (cbuf q) k C t = (b, off)) /\
    (forall t, C <= t < C + alen cells -> snd (nth (Z.to_nat (t - C)) cells (0, true)) = false -> In t (map tk pend)).

Definition CR (c : cstate) (a : astate) : Prop :=
  let '(q, pend) := c in let '(base, cells) := a in
  cidx q = 2 * base /\
  exists segs, QInv q segs /\ concat segs = map proj cells /\ PendOK q segs cells pend.

Lemma find_pend_in t pend b off v : find_pend t pend = Some (b, off, v) -> In (t, b, off, v) pend.
Proof.
  induction pend as [|[[[t' b'] off'] v'] rest IH]; cbn [find_pend]; [discriminate|].
  destruct (Z.eqb_spec t' t) as [->|Hne].
  - intros E. injection E as -> -> ->. left. reflexivity.
  - intros E. right. apply IH. exact E.
Qed.

Lemma find_pend_none t pend : find_pend t pend = None -> ~ In t (map tk pend).
Proof.
  induction pend as [|[[[t' b'] off'] v'] rest IH]; cbn [find_pend map tk]; [intros _ []|].
  destruct (Z.eqb_spec t' t) as [->|Hne]; [discriminate|]. intros E [H|H]; [contradiction|]. exact (IH E H).
Qed.

Lemma remove_pend_in t pend e : NoDup (map tk pend) ->
  (In e (remove_pend t pend) <-> In e pend /\ tk e <> t).
Proof.
  induction pend as [|[[[t' b'] off'] v'] rest IH]; intros Hnd; cbn [remove_pend]; [tauto|].
  cbn [map tk] in Hnd. inversion Hnd as [|? ? Hn Hnd']; subst.
  destruct (Z.eqb_spec t' t) as [->|Hne].
  - split.
    + intros H. split; [right; exact H|]. intros E. apply Hn. rewrite <- E. apply in_map. exact H.
    + intros [[E|H] Hneq]; [subst e; cbn [tk] in Hneq; contradiction|exact H].
  - cbn [In]. rewrite (IH Hnd'). split.
    + intros [E|[H1 H2]]; [subst e; split; [left; reflexivity|exact Hne]|split; [right; exact H1|exact H2]].
    + intros [[E|H] Hneq]; [left; exact E|right; split; assumption].
Qed.

Lemma remove_pend_nodup t pend : NoDup (map tk pend) -> NoDup (map tk (remove_pend t pend)).
Proof.
  induction pend as [|[[[t' b'] off'] v'] rest IH]; intros Hnd; cbn [remove_pend]; [constructor|].
  cbn [map tk] in Hnd. inversion Hnd as [|? ? Hn Hnd']; subst.
  destruct (t' =? t); [exact Hnd'|]. cbn [map tk]. constructor; [|apply IH; exact Hnd'].
  intros H. apply Hn. apply in_map_iff in H. destruct H as (e & E & He).
  apply (remove_pend_in t rest e Hnd') in He. apply in_map_iff. exists e. tauto.
Qed.

Lemma alen_map (cells : list (Z * bool)) : clen (map proj cells) = alen cells.
Proof. unfold clen, alen. rewrite map_length. reflexivity. Qed.

Lemma cell_at_map segs cells C t :
  concat segs = map proj cells -> C <= t < C + alen cells ->
  cell_at segs C t = proj (nth (Z.to_nat (t - C)) cells (0, true)).
Proof.
  intros E Ht. unfold cell_at. rewrite E. change None with (proj (0, false)). rewrite map_nth.
  f_equal. apply nth_indep. unfold alen in Ht. lia.
Qed.

(* the relation, with its witnesses in the open *)
Definition Pend (segs : list (list cell)) (b0 : nat) (k C : Z) (cells : list (Z * bool)) (pend : list pent) : Prop :=
  NoDup (map tk pend) /\
  (forall t b off v, In (t, b, off, v) pend ->
     C <= t < C + alen cells /\ nth (Z.to_nat (t - C)) cells (0, true) = (v, false) /\
     loc segs b0 k C t = (b, off)) /\
  (forall t, C <= t < C + alen cells -> snd (nth (Z.to_nat (t - C)) cells (0, true)) = false -> In t (map tk pend)).

Lemma cr_iff q pend base cells :
  CR (q, pend) (base, cells) <->
  exists segs k K, QI q segs k base K /\ concat segs = map proj cells /\ Pend segs (cbuf q) k base cells pend.
Proof.
  split.
  - intros (Hbase & segs & HQ & Hcat & (k & C & Hk & Hcm & HC & Hc & HP)).
    apply QInv_QI in HQ. destruct HQ as (k1 & C1 & K & HQ).
    assert (C = base) by lia. assert (C1 = base) by (pose proof (qi_cidx HQ); lia).
    assert (k1 = k) by (apply mask_of_inj; [exact (qi_k HQ)|assumption|rewrite <- (qi_cmask HQ); assumption]).
    subst. exists segs, k, K. auto.
  - intros (segs & k & K & HQ & Hcat & HP). split; [exact (qi_cidx HQ)|]. exists segs.
    split; [apply QInv_QI; eauto|]. split; [assumption|]. exists k, base. destruct HQ. auto.
Qed.

Lemma pend_publish segs b0 k C cells pend t b off v :
  Pend segs b0 k C cells pend -> In (t, b, off, v) pend ->
  Pend (publish_at segs C t v) b0 k C (upd (Z.to_nat (t - C)) (v, true) cells) (remove_pend t pend).
Proof.
  intros (Hnd & Hin & Hall) Hf. destruct (Hin _ _ _ _ Hf) as (Hr & _).
  unfold Pend, alen. rewrite upd_length. fold (alen cells). split; [apply remove_pend_nodup; assumption|]. split.
  - intros t' b' off' v' Hin'. apply (remove_pend_in t pend _ Hnd) in Hin'. destruct Hin' as [Hin' Hneq]. cbn [tk] in Hneq.
    destruct (Hin t' b' off' v' Hin') as (Hr' & Hn' & Hloc').
    split; [assumption|]. split; [rewrite nth_upd_other by lia; assumption|].
    unfold loc in *. rewrite seg_index_publish. exact Hloc'.
  - intros t' Hr' Hu. destruct (Z.eq_dec t' t) as [->|Hneq].
    + rewrite nth_upd_same in Hu by (unfold alen in Hr; lia). discriminate Hu.
    + rewrite nth_upd_other in Hu by lia. specialize (Hall t' Hr' Hu).
      apply in_map_iff in Hall. destruct Hall as (e & E & He). apply in_map_iff. exists e. split; [exact E|].
      apply (remove_pend_in t pend e Hnd). split; [exact He|congruence].
Qed.

Lemma nodup_snoc {A} (l : list A) x : NoDup l -> ~ In x l -> NoDup (l ++ [x]).
Proof. intros Hn Hx. apply (NoDup_Add (Add_app x l [])). rewrite app_nil_r. split; assumption. Qed.

(* a new last cell: published at once (p, after growth) or reserved under a new ticket *)
Lemma pend_snoc segs segs' b0 k C cells pend v (p : bool) pend' :
  Pend segs b0 k C cells pend ->
  (forall t, C <= t < C + alen cells -> loc segs' b0 k C t = loc segs b0 k C t) ->
  (if p then pend' = pend
   else exists b off, pend' = pend ++ [(C + alen cells, b, off, v)] /\ loc segs' b0 k C (C + alen cells) = (b, off)) ->
  Pend segs' b0 k C (cells ++ [(v, p)]) pend'.
Proof.
  intros (Hnd & Hin & Hall) Hloc Hp.
  assert (Halen : alen (cells ++ [(v, p)]) = alen cells + 1) by (unfold alen; rewrite app_length; cbn [length]; lia).
  assert (Hold : forall t b off v0, In (t, b, off, v0) pend ->
            C <= t < C + (alen cells + 1) /\ nth (Z.to_nat (t - C)) (cells ++ [(v, p)]) (0, true) = (v0, false) /\
            loc segs' b0 k C t = (b, off)).
  { intros t b off v0 Hi. destruct (Hin _ _ _ _ Hi) as (Hr & Hn & Hl). split; [lia|].
    split; [rewrite app_nth1 by (unfold alen in Hr; lia); exact Hn|]. rewrite Hloc by assumption. exact Hl. }
  assert (Hlast : nth (Z.to_nat (C + alen cells - C)) (cells ++ [(v, p)]) (0, true) = (v, p)).
  { rewrite app_nth2 by (unfold alen; lia). replace (_ - _)%nat with 0%nat by (unfold alen; lia). reflexivity. }
  assert (Hrest : forall t, C <= t < C + (alen cells + 1) -> t <> C + alen cells ->
            snd (nth (Z.to_nat (t - C)) (cells ++ [(v, p)]) (0, true)) = false -> In t (map tk pend)).
  { intros t Hr Hne Hu. rewrite app_nth1 in Hu by (unfold alen in *; lia). apply Hall; [lia|exact Hu]. }
  unfold Pend. rewrite Halen. destruct p.
  - subst pend'. split; [assumption|]. split; [exact Hold|]. intros t Hr Hu.
    destruct (Z.eq_dec t (C + alen cells)) as [->|Hne]; [rewrite Hlast in Hu; discriminate Hu|auto].
  - destruct Hp as (b & off & -> & Hnew). rewrite map_app. cbn [map tk]. split; [|split].
    + apply nodup_snoc; [assumption|]. intros Hx. apply in_map_iff in Hx. destruct Hx as ([[[t' b'] off'] v'] & E & He).
      cbn [tk] in E. subst t'. destruct (Hin _ _ _ _ He) as (Hr & _). lia.
    + intros t b1 off1 v0 Hi. apply in_app_or in Hi. destruct Hi as [Hi|[E|[]]]; [exact (Hold _ _ _ _ Hi)|].
      injection E as <- <- <- <-. split; [unfold alen; lia|]. split; [exact Hlast|exact Hnew].
    + intros t Hr Hu. apply in_or_app.
      destruct (Z.eq_dec t (C + alen cells)) as [->|Hne]; [right; left; reflexivity|left; auto].
Qed.

Lemma pend_pop segs segs' b0 b0' k k' C v rest pend :
  Pend segs b0 k C ((v, true) :: rest) pend ->
  (forall t, C + 1 <= t -> loc segs' b0' k' (C + 1) t = loc segs b0 k C t) ->
  Pend segs' b0' k' (C + 1) rest pend.
Proof.
  intros (Hnd & Hin & Hall) Hloc.
  assert (Hal : alen ((v, true) :: rest) = alen rest + 1) by (unfold alen; cbn [length]; lia). rewrite Hal in *.
  split; [assumption|]. split.
  - intros t b off v0 Hi. destruct (Hin t b off v0 Hi) as (Hr & Hn & Hl).
    assert (Hne : t <> C) by (intros ->; rewrite Z.sub_diag in Hn; discriminate Hn).
    split; [lia|]. replace (Z.to_nat (t - C)) with (S (Z.to_nat (t - (C + 1)))) in Hn by lia.
    split; [exact Hn|]. rewrite Hloc by lia. exact Hl.
  - intros t Hr Hu. apply Hall; [lia|].
    replace (Z.to_nat (t - C)) with (S (Z.to_nat (t - (C + 1)))) by lia. exact Hu.
Qed.

Lemma sim_publish q pend base cells t b off v :
  CR (q, pend) (base, cells) -> find_pend t pend = Some (b, off, v) ->
  CR (push_publish q b off v, remove_pend t pend)
     (base, upd (Z.to_nat (t - base)) (v, true) cells) /\
  base <= t < base + alen cells /\ nth (Z.to_nat (t - base)) cells (0, true) = (v, false).
Proof.
  intros HR Hf. apply cr_iff in HR. destruct HR as (segs & k & K & HQ & Hcat & HP).
  apply find_pend_in in Hf. destruct (proj1 (proj2 HP) t b off v Hf) as (Hr & Hn & Hloc).
  split; [|split; assumption].
  assert (Hrange : base <= t < base + clen (concat segs)) by (rewrite Hcat, alen_map; exact Hr).
  apply cr_iff. exists (publish_at segs base t v), k, K. split; [|split].
  - apply publish_inv; try assumption. rewrite (cell_at_map segs cells base t Hcat Hr), Hn. reflexivity.
  - rewrite concat_publish_at, Hcat, map_upd by assumption. reflexivity.
  - exact (pend_publish _ _ _ _ _ _ _ _ _ _ HP Hf).
Qed.

Lemma sim_reserve q pend base cells v :
  CR (q, pend) (base, cells) ->
  let '(c', out) := cstep (q, pend) (CReserve v) in
  exists a', astep (mpsc_capacity q) (base, cells) (CReserve v) out = Some a' /\ CR c' a' /\
             mpsc_capacity (fst c') = mpsc_capacity q.
Proof.
  intros HR. pose proof HR as HR0. apply cr_iff in HR. destruct HR as (segs & k & K & HQ & Hcat & HP).
  pose proof (creserve_spec q segs k base K v HQ) as Hs. pose proof (qi_total HQ) as Htot.
  destruct (qi_le HQ) as (HK & Hcapq & Hle). rewrite Hcat, alen_map in *.
  assert (HP2 : pidx q / 2 = base + alen cells) by (rewrite Htot, Z.mul_comm; apply Z.div_mul; lia).
  (* an accepted offer: one more cell, and the new state cannot hold more than 2^K of them *)
  assert (Hok : forall q' pend' segs' p, cbuf q' = cbuf q -> QI q' segs' k base K -> extends segs segs' base (proj (v, p)) ->
            (if p then pend' = pend else exists b off, pend' = pend ++ [(base + alen cells, b, off, v)] /\
                                           loc segs' (cbuf q) k base (base + alen cells) = (b, off)) ->
            exists a', astep (mpsc_capacity q) (base, cells) (CReserve v) (OTicket (base + alen cells) p) = Some a' /\
              CR (q', pend') a' /\ mpsc_capacity q' = mpsc_capacity q).
  { intros q' pend' segs' p Ecb HQ' [Hcat' Hidx] Hp. exists (base, cells ++ [(v, p)]).
    destruct (qi_le HQ') as (_ & Hcapq' & Hle'). rewrite Hcat', clen_app, Hcat, alen_map in Hle'. change (clen [_]) with 1 in Hle'.
    split; [|split; [|congruence]].
    - cbn [astep]. rewrite Hcapq. replace (alen cells <? 2 ^ K) with true by lia. rewrite Z.eqb_refl. reflexivity.
    - apply cr_iff. exists segs', k, K. split; [exact HQ'|]. split; [rewrite Hcat', Hcat, map_app; reflexivity|].
      rewrite Ecb. apply (pend_snoc segs _ _ _ _ _ pend); [exact HP| |exact Hp].
      intros t Ht. unfold loc. rewrite Hidx by (rewrite Hcat, alen_map; lia). reflexivity. }
  cbn [cstep]. rewrite HP2. destruct (push_reserve q v) as [q' [|b off|]].
  - destruct Hs as [-> Hfull]. exists (base, cells). split; [|split; [exact HR0|reflexivity]].
    cbn [astep]. rewrite Hcapq. replace (alen cells =? 2 ^ K) with true by lia. reflexivity.
  - destruct Hs as (Ecb & segs' & HQ' & Hext & Hloc). apply (Hok _ _ _ false Ecb HQ' Hext). eauto.
  - destruct Hs as (Ecb & segs' & HQ' & Hext). exact (Hok _ _ _ true Ecb HQ' Hext eq_refl).
Qed.

Lemma sim_pop q pend base cells :
  CR (q, pend) (base, cells) ->
  let '(c', out) := cstep (q, pend) CPop in
  exists a', astep (mpsc_capacity q) (base, cells) CPop out = Some a' /\ CR c' a' /\
             mpsc_capacity (fst c') = mpsc_capacity q.
Proof.
  intros HR. pose proof HR as HR0. apply cr_iff in HR. destruct HR as (segs & k & K & HQ & Hcat & HP).
  pose proof (cpop_spec q segs k base K HQ) as Hp. rewrite Hcat in Hp. cbn [cstep].
  destruct cells as [|[v [|]] rest]; cbn [map proj fst snd] in Hp.
  - rewrite Hp. exists (base, []). split; [reflexivity|]. split; [exact HR0|reflexivity].
  - destruct Hp as (q' & segs' & k' & Etp & HQ' & Hcat' & Hloc). pose proof (pop_maxcap q) as Hm.
    rewrite Etp in *. exists (base + 1, rest). split; [cbn [astep]; rewrite Z.eqb_refl; reflexivity|]. split.
    + apply cr_iff. exists segs', k', K. split; [exact HQ'|]. split; [exact Hcat'|]. exact (pend_pop _ _ _ _ _ _ _ _ _ _ HP Hloc).
    + unfold mpsc_capacity. cbn [fst] in *. rewrite Hm. reflexivity.
  - rewrite Hp. exists (base, (v, false) :: rest). split; [reflexivity|]. split; [exact HR0|reflexivity].
Qed.

Lemma push_publish_capacity q b off v : mpsc_capacity (push_publish q b off v) = mpsc_capacity q.
Proof. reflexivity. Qed.

Theorem sim_step c a o :
  CR c a ->
  let '(c', out) := cstep c o in
  exists a', astep (mpsc_capacity (fst c)) a o out = Some a' /\ CR c' a' /\
             mpsc_capacity (fst c') = mpsc_capacity (fst c).
Proof.
  destruct c as [q pend]. destruct a as [base cells]. intros HR. cbn [fst].
  destruct o as [v|t|].
  - exact (sim_reserve q pend base cells v HR).
  - cbn [cstep]. destruct (find_pend t pend) as [[[b off] v]|] eqn:Ef.
    + destruct (sim_publish q pend base cells t b off v HR Ef) as (HR' & Hr & Hn).
      exists (base, upd (Z.to_nat (t - base)) (v, true) cells). split; [|split; [exact HR'|reflexivity]].
      cbn [astep]. replace (base <=? t) with true by lia. replace (t <? base + alen cells) with true by lia.
      rewrite Hn. reflexivity.
    + (* not a pending ticket: by the invariant, not an unpublished cell either *)
      exists (base, cells). split; [|split; [exact HR|reflexivity]]. cbn [astep].
      destruct ((base <=? t) && (t <? base + alen cells) && negb (snd (nth (Z.to_nat (t - base)) cells (0, true)))) eqn:E; [|reflexivity].
      exfalso. apply andb_true_iff in E. destruct E as [E E3]. apply andb_true_iff in E. destruct E as [E1 E2].
      apply cr_iff in HR. destruct HR as (segs & k & K & _ & _ & (_ & _ & Hall)).
      apply (find_pend_none t pend Ef), Hall; [lia|]. apply negb_true_iff, E3.
  - pose proof (sim_pop q pend base cells HR) as H. cbn [cstep] in *.
    destruct (try_pop q) as [q' r]. exact H.
Qed.

Theorem conc_explained : forall ops c a,
  CR c a -> explained (mpsc_capacity (fst c)) c a ops.
Proof.
  induction ops as [|o rest IH]; intros c a HR; [exact I|].
  cbn [explained]. pose proof (sim_step c a o HR) as H.
  destruct (cstep c o) as [c' out]. destruct H as (a' & Ha & HR' & Hc).
  rewrite Ha. rewrite <- Hc. apply IH. exact HR'.
Qed.

Lemma qinv_new initial maximum :
  2 <= initial <= 2 ^ 31 -> 4 <= maximum <= 2 ^ 31 -> roundup32 initial <= roundup32 maximum ->
  CR (mpsc_new initial maximum, []) (0, []) /\ mpsc_capacity (mpsc_new initial maximum) = roundup32 maximum.
Proof.
  intros Hi Hm Hle.
  rewrite (roundup32_spec initial) in * by lia. rewrite (roundup32_spec maximum) in * by lia.
  set (k := Z.log2_up initial) in *. set (K := Z.log2_up maximum) in *.
  assert (Hk : 0 < k) by (apply Z.log2_up_pos; lia).
  assert (HK : 0 < K) by (apply Z.log2_up_pos; lia).
  assert (HkK : k <= K) by (apply (Z.pow_le_mono_r_iff 2); lia).
  pose proof (pow2_pos k ltac:(lia)) as Hpk. pose proof (pow2_pos K ltac:(lia)) as HpK.
  unfold mpsc_new. rewrite (roundup32_spec initial), (roundup32_spec maximum) by lia. fold k K.
  rewrite !Z.shiftl_mul_pow2 by lia. change (2 ^ 1) with 2.
  replace ((2 ^ k - 1) * 2) with (mask_of k) by (unfold mask_of; lia). rewrite (Z.mul_comm (2 ^ K)).
  set (q0 := mkMpsc _ _ _ _ _ _ _ _ _).
  assert (Hcap : mask_of k <= cap q0 k) by (destruct (cap_cases q0 K k eq_refl ltac:(lia)) as [(_ & ->)|(_ & -> & _)]; unfold mask_of; lia).
  split; [|unfold mpsc_capacity; cbn [q0 maxcap]; rewrite Z.mul_comm; apply Z.div_mul; lia].
  apply cr_iff. exists [[]], k, K. split; [|split; [reflexivity|]].
  - constructor; try reflexivity; cbn [q0 pidx plimit cidx maxcap tl]; try (unfold mask_of; lia); [constructor|].
    split; [reflexivity|]. split; [reflexivity|]. split; [exact HkK|]. split; [apply cbufok_empty; lia|].
    change (clen []) with 0. cbn [q0 pidx plimit]. unfold mask_of in *. lia.
  - split; [constructor|]. split; [intros t b off v []|]. intros t Ht. change (alen []) with 0 in Ht. lia.
Qed.

(* every concurrent execution — any interleaving of reservations, publications and pops — is
   explained by the FIFO of reservations of capacity roundup32(maximum) *)
Theorem conc_fifo initial maximum ops :
  2 <= initial <= 2 ^ 31 -> 4 <= maximum <= 2 ^ 31 -> roundup32 initial <= roundup32 maximum ->
  explained (roundup32 maximum) (mpsc_new initial maximum, []) (0, []) ops.
Proof.
  intros Hi Hm Hle. destruct (qinv_new initial maximum Hi Hm Hle) as [HR Hc].
  rewrite <- Hc. exact (conc_explained ops _ _ HR).
Qed.

(* complete pushes and pops: every reservation is published before the next operation, so no
   ticket is ever pending and the FIFO of reservations is a FIFO of values *)

Definition Inv (q : mpsc) (l : list Z) : Prop := exists base, CR (q, []) (base, map (fun v => (v, true)) l).

Lemma inv_new initial maximum :
  2 <= initial <= 2 ^ 31 -> 4 <= maximum <= 2 ^ 31 -> roundup32 initial <= roundup32 maximum ->
  Inv (mpsc_new initial maximum) [] /\ mpsc_capacity (mpsc_new initial maximum) = roundup32 maximum.
Proof. intros Hi Hm Hle. destruct (qinv_new initial maximum Hi Hm Hle) as [HR Hc]. split; [exists 0; exact HR|exact Hc]. Qed.

Theorem push_spec q l v : Inv q l ->
  snd (try_push q v) = (zlen l <? mpsc_capacity q) /\
  Inv (fst (try_push q v)) (if snd (try_push q v) then l ++ [v] else l) /\
  mpsc_capacity (fst (try_push q v)) = mpsc_capacity q.
Proof.
  intros [base HR]. pose proof (sim_reserve q [] base _ v HR) as H. cbn [cstep] in H. unfold try_push.
  assert (El : alen (map (fun v => (v, true)) l) = zlen l) by (unfold alen, zlen; rewrite map_length; reflexivity).
  destruct (push_reserve q v) as [q1 [|b off|]]; destruct H as (a' & Ha & HR' & Hc); cbn [astep fst snd app] in *; rewrite El in Ha.
  - destruct (Z.eqb_spec (zlen l) (mpsc_capacity q)); [|discriminate Ha]. injection Ha as <-.
    split; [lia|]. split; [exists base; exact HR'|exact Hc].
  - destruct (Z.ltb_spec (zlen l) (mpsc_capacity q)); [|discriminate Ha].
    destruct (Z.eqb_spec (pidx q / 2) (base + zlen l)) as [Et|]; [|discriminate Ha]. injection Ha as <-.
    destruct (sim_publish q1 _ base _ (pidx q / 2) b off v HR') as (HR'' & _).
    { cbn [find_pend]. rewrite Z.eqb_refl. reflexivity. }
    cbn [remove_pend] in HR''. rewrite Z.eqb_refl in HR''.
    replace (Z.to_nat (pidx q / 2 - base)) with (length (map (fun v => (v, true)) l)) in HR''
      by (rewrite map_length; unfold zlen in Et; lia).
    rewrite upd_snoc in HR''. split; [reflexivity|]. split; [|exact Hc].
    exists base. rewrite map_app. exact HR''.
  - destruct (Z.ltb_spec (zlen l) (mpsc_capacity q)); [|discriminate Ha].
    destruct (pidx q / 2 =? base + zlen l); [|discriminate Ha]. injection Ha as <-.
    split; [reflexivity|]. split; [|exact Hc]. exists base. rewrite map_app. exact HR'.
Qed.

Theorem pop_spec q l : Inv q l ->
  snd (try_pop q) = match l with [] => PopEmpty | v :: _ => PopElem v end /\
  Inv (fst (try_pop q)) (tl l) /\ mpsc_capacity (fst (try_pop q)) = mpsc_capacity q.
Proof.
  intros [base HR]. pose proof (sim_pop q [] base _ HR) as H. cbn [cstep] in H.
  destruct (try_pop q) as [q' r]. destruct H as (a' & Ha & HR' & Hc). cbn [fst snd] in *.
  destruct l as [|v l]; cbn [astep map tl] in *.
  - destruct r; try discriminate Ha. injection Ha as <-. split; [reflexivity|]. split; [exists base; exact HR'|exact Hc].
  - destruct r as [|w| |]; try discriminate Ha. destruct (Z.eqb_spec w v) as [->|]; [|discriminate Ha]. injection Ha as <-.
    split; [reflexivity|]. split; [exists (base + 1); exact HR'|exact Hc].
Qed.

Theorem fifo_refinement ops : forall q l,
  Inv q l -> qrun q ops = frun (mpsc_capacity q) l ops.
Proof.
  induction ops as [|o t IH]; intros q l H; [reflexivity|].
  cbn [qrun frun]. destruct o as [v|]; cbn [qstep fstep].
  - destruct (push_spec q l v H) as (Hok & HI & Hc).
    destruct (try_push q v) as [q' ok]. cbn [fst snd] in *. subst ok.
    destruct (zlen l <? mpsc_capacity q); rewrite <- Hc; f_equal; apply IH; exact HI.
  - destruct (pop_spec q l H) as (Hr & HI & Hc).
    destruct (try_pop q) as [q' r]. cbn [fst snd] in *. subst r.
    destruct l; rewrite <- Hc; f_equal; apply IH; exact HI.
Qed.

Lemma inv_reachable ops : forall q l, Inv q l -> exists l', Inv (qstate q ops) l'.
Proof.
  induction ops as [|o t IH]; intros q l H; [exists l; exact H|].
  unfold qstate. cbn [fold_left]. destruct o as [v|]; cbn [qstep].
  - destruct (push_spec q l v H) as (_ & HI & _). destruct (try_push q v) as [q' ok]. exact (IH _ _ HI).
  - destruct (pop_spec q l H) as (_ & HI & _). destruct (try_pop q) as [q' r]. exact (IH _ _ HI).
Qed.

Lemma mpsc_size_abs q l : Inv q l -> mpsc_size q = zlen l /\ zlen l <= mpsc_capacity q.
Proof.
  intros [base HR]. apply cr_iff in HR. destruct HR as (segs & k & K & HQ & Hcat & _).
  rewrite (mpsc_size_cabs q segs) by (apply QInv_QI; eauto).
  destruct (qi_le HQ) as (_ & -> & Hle). rewrite Hcat, alen_map in *.
  unfold alen in *. rewrite map_length in *. auto.
Qed.

Lemma size_bounded q l : Inv q l -> 0 <= mpsc_size q <= mpsc_capacity q.
Proof. intros H. destruct (mpsc_size_abs q l H) as [-> Hle]. pose proof (zlen_nonneg l). lia. Qed.

Lemma refused_iff_full q l v : Inv q l ->
  (snd (try_push q v) = false <-> mpsc_size q = mpsc_capacity q).
Proof. intros H. destruct (push_spec q l v H) as (-> & _). destruct (mpsc_size_abs q l H) as [-> Hle]. lia. Qed.
