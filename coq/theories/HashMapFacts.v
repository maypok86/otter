(* HashMapFacts.v — the SWAR byte search of the hash table never misses a matching meta byte. *)
From Otter Require Import Base HashMap.
From Coq Require Import ZifyBool.
Local Open Scope Z_scope.

Lemma range_forall (P : Z -> bool) n :
  forallb P (map Z.of_nat (seq 0 n)) = true -> forall x, 0 <= x < Z.of_nat n -> P x = true.
Proof.
  intros H x Hx. rewrite forallb_forall in H. apply H.
  rewrite in_map_iff. exists (Z.to_nat x). split; [lia|]. apply in_seq. lia.
Qed.

Definition K01 : Z := 0x0101010101010101.

(* every byte of K01 is 1: below byte j it is (2^(8j) - 1) / 255 *)
Lemma K01_split j :
  0 <= j < 8 -> 0 <= 255 * (K01 mod 2 ^ (8 * j)) < 2 ^ (8 * j) /\ (K01 / 2 ^ (8 * j)) mod 256 = 1.
Proof.
  intros Hj.
  pose (P j := let L := K01 mod 2 ^ (8 * j) in
               (0 <=? 255 * L) && (255 * L <? 2 ^ (8 * j)) && ((K01 / 2 ^ (8 * j)) mod 256 =? 1)).
  assert (H : forallb P (map Z.of_nat (seq 0 8)) = true) by (vm_compute; reflexivity).
  pose proof (range_forall P 8 H j Hj) as Hp. unfold P in Hp. cbv zeta in Hp. lia.
Qed.

Lemma mod_byte_succ w i :
  0 <= i -> w mod 2 ^ (8 * i + 8) = w mod 2 ^ (8 * i) + 2 ^ (8 * i) * ((w / 2 ^ (8 * i)) mod 256).
Proof.
  intros Hi. assert (0 < 2 ^ (8 * i)) by (apply Z.pow_pos_nonneg; lia).
  rewrite Z.pow_add_r by lia. apply Z.rem_mul_r; lia.
Qed.

Lemma testbit_high x n : 0 <= n -> 2 ^ n <= x < 2 ^ (n + 1) -> Z.testbit x n = true.
Proof.
  intros Hn Hx. assert (0 < 2 ^ n) by (apply Z.pow_pos_nonneg; lia).
  rewrite <- (Z.log2_unique x n Hn Hx). apply Z.bit_log2. lia.
Qed.

(* A zero byte of w is always marked: bit 8i+7 of ~w is set; and below byte i+1, w is smaller than
   0x01..01, so the subtraction borrows through byte i and leaves its top bit set. *)
Theorem markZeroBytes_zero_byte w i :
  0 <= i < 8 -> (w / 2 ^ (8 * i)) mod 256 = 0 -> Z.testbit (markZeroBytes w) (8 * i + 7) = true.
Proof.
  intros Hi Hz. unfold markZeroBytes. change 0x0101010101010101 with K01.
  assert (HB : 0 < 2 ^ (8 * i)) by (apply Z.pow_pos_nonneg; lia).
  rewrite !Z.land_spec. repeat apply andb_true_intro, conj.
  - unfold wrapu. change two64 with (2 ^ 64). rewrite Z.mod_pow2_bits_low by lia.
    rewrite <- (Z.mod_pow2_bits_low _ (8 * i + 8)) by lia.
    replace (8 * i + 8) with (8 * i + 7 + 1) by lia. apply testbit_high; [lia|].
    replace (8 * i + 7 + 1) with (8 * i + 8) by lia.
    pose proof (Z.mod_pos_bound w (2 ^ (8 * i)) HB) as Hlo.
    pose proof (mod_byte_succ w i ltac:(lia)) as Ew. rewrite Hz in Ew.
    pose proof (mod_byte_succ K01 i ltac:(lia)) as Ek.
    destruct (K01_split i Hi) as [Hk Hk1]. rewrite Hk1 in Ek.
    rewrite Zminus_mod, Ew, Ek.
    rewrite !Z.pow_add_r by lia. change (2 ^ 8) with 256. change (2 ^ 7) with 128.
    set (B := 2 ^ (8 * i)) in *. set (L := K01 mod B) in *.
    rewrite <- (Z.mod_add _ 1) by lia. rewrite Z.mod_small; lia.
  - rewrite Z.lxor_spec. change (two64 - 1) with (Z.ones 64). rewrite Z.testbit_ones_nonneg by lia.
    replace (8 * i + 7) with (7 + 8 * i) at 1 by lia. rewrite <- Z.div_pow2_bits by lia.
    rewrite <- (Z.mod_pow2_bits_low _ 8) by lia. change (2 ^ 8) with 256. rewrite Hz.
    replace (8 * i + 7 <? 64) with true by lia. reflexivity.
  - assert (C : i = 0 \/ i = 1 \/ i = 2 \/ i = 3 \/ i = 4 \/ i = 5 \/ i = 6 \/ i = 7) by lia.
    destruct C as [->|[->|[->|[->|[->|[->|[->| ->]]]]]]]; reflexivity.
Qed.

(* xor with the broadcast hash byte turns a matching meta byte into a zero byte *)
Lemma lxor_byte a b i :
  0 <= i -> (Z.lxor a b / 2 ^ (8 * i)) mod 256 = Z.lxor ((a / 2 ^ (8 * i)) mod 256) ((b / 2 ^ (8 * i)) mod 256).
Proof.
  intros Hi. rewrite <- !Z.shiftr_div_pow2 by lia.
  change 256 with (2 ^ 8). rewrite <- !Z.land_ones by lia.
  rewrite Z.shiftr_lxor. apply Z.bits_inj'. intros n Hn.
  rewrite !Z.land_spec, !Z.lxor_spec, !Z.land_spec.
  destruct (Z.testbit (Z.ones 8) n); rewrite ?andb_true_r, ?andb_false_r; reflexivity.
Qed.
