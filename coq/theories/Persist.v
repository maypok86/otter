(* Persist.v — LoadCacheFrom as a program over the concrete model (persistence.go, with the
   repairs: skip entries with exp <= now, warm-up reads before the deadlines are restored,
   zero-weight entries never cut off).  gob is the identity on Entry (modelled).
   SaveCacheTo enumerates Hottest(): each live entry once (C05), in the policy's order, which is
   an input here. *)
From Otter Require Import Base Seq SeqRefine SeqFacts.
From Coq Require Import ZifyBool.
Local Open Scope Z_scope.

Record saved := mkSaved { sv_key : Z; sv_val : Z; sv_weight : Z; sv_exp : Z; sv_refr : Z }.

(* the part of LoadCacheFrom's loop body that touches one entry: Set, [reads] warm-up reads,
   SetExpiresAfter, SetRefreshableAfter — all at clock [now] *)
Fixpoint warm (c : cfg) (s : cstate) (k : Z) (reads : nat) (now : Z) : cstate :=
  match reads with
  | O => s
  | S r => warm c (fst (get_node c s k now)) k r now
  end.

Definition load_entry (c : cfg) (s : cstate) (e : saved) (reads : nat) (now : Z) : cstate :=
  if with_exp c && (sv_exp e <=? now) then s else
  let s1 := fst (do_set c s (sv_key e) (sv_val e) false now) in
  let s2 := warm c s1 (sv_key e) reads now in
  let s3 := if with_exp c && negb (sv_exp e =? MaxInt64)
            then do_set_expires_after c s2 (sv_key e) (Z.max 1 (wraps (sv_exp e - now))) now else s2 in
  if with_refr c && negb (sv_refr e =? MaxInt64)
  then do_set_refreshable_after c s3 (sv_key e) (Z.max 1 (wraps (sv_refr e - now))) now else s3.

Section P.
Variable c : cfg.
Hypothesis CO : cfg_ok c.

Lemma warm_keeps s k n reads now :
  time_ok now -> node_ok n -> lookup k (cmap s) = Some n -> has_expired c n now = false ->
  exists n', lookup k (cmap (warm c s k reads now)) = Some n' /\ nval n' = nval n /\ nweight n' = nweight n /\
             nrefr n' = nrefr n /\ has_expired c n' now = false /\ node_ok n'.
Proof.
  intros Ht. revert s n. induction reads as [|r IH]; intros s n On L X; cbn [warm]; [exists n; auto 6|].
  unfold get_node at 1. rewrite L, X. cbn [fst].
  destruct (calc_exp_read_fields c k n now) as (F1 & F2 & F3).
  destruct (IH (upd_st (upd_map s (mutate k (fun _ => calc_exp_read c k n now) (cmap s))) st_hit) (calc_exp_read c k n now))
    as (n' & L' & V & W & Rf & X' & O').
  - apply calc_exp_read_ok; assumption.
  - cbn [cmap upd_st upd_map]. rewrite lookup_mutate_same, L. reflexivity.
  - apply calc_exp_read_live; assumption.
  - exists n'. rewrite <- F1, <- F2, <- F3. auto 6.
Qed.

Lemma sra_keeps s k d now n :
  lookup k (cmap s) = Some n ->
  exists n', lookup k (cmap (do_set_refreshable_after c s k d now)) = Some n' /\ nval n' = nval n /\ nexp n' = nexp n /\ nweight n' = nweight n.
Proof.
  intros L. unfold do_set_refreshable_after. destruct (negb (with_refr c) || (d <=? 0)); [exists n; auto|].
  rewrite L. destruct (negb (wraps (nrefr n - now) =? d)); [|exists n; auto].
  cbn [cmap upd_map]. rewrite lookup_mutate_same, L. eexists. split; [reflexivity|]. auto.
Qed.

Lemma set_absent s k v now :
  with_exp c = true -> time_ok now -> lookup k (cmap s) = None ->
  exists n, lookup k (cmap (fst (do_set c s k v false now))) = Some n /\ nval n = v /\
            has_expired c n now = false /\ node_ok n.
Proof.
  intros Hw Ht L. unfold do_set. cbn [andb]. rewrite L.
  pose proof (create_exp c CO k v None NoCall now Hw Ht (or_introl eq_refl)) as Ex.
  pose proof (atomic_set_ok c CO k v None NoCall now Ht ltac:(discriminate)) as Ok.
  pose proof (atomic_set_val c k v None NoCall now) as V.
  destruct (atomic_set c k v None NoCall now) as [n evs]. cbn [fst cmap upd_map] in *.
  exists n. unfold put. cbn [lookup fst]. rewrite Z.eqb_refl. split; [reflexivity|]. split; [exact V|]. split; [|exact Ok].
  unfold has_expired. rewrite Hw, Ex. cbn [andb].
  pose proof (satadd_ok now _ Ht (conj (ec_pos c CO k v 0) (ec_rng c CO k v 0))). lia.
Qed.

(* an entry that is not expired at load time is loaded (into a cache that does not hold its key)
   with its key, value and the saved expiration deadline, whatever the warm-up reads did to the
   deadline in between: SetExpiresAfter overrides it with the saved one *)
Theorem load_entry_exp s e reads now :
  with_exp c = true -> time_ok now -> now < sv_exp e < MaxInt64 -> lookup (sv_key e) (cmap s) = None ->
  exists n, lookup (sv_key e) (cmap (load_entry c s e reads now)) = Some n /\ nval n = sv_val e /\ nexp n = sv_exp e.
Proof.
  intros Hw Ht He Labs. unfold load_entry. rewrite Hw. cbn [andb].
  replace (sv_exp e <=? now) with false by lia. replace (sv_exp e =? MaxInt64) with false by lia. cbn [negb].
  destruct (set_absent s (sv_key e) (sv_val e) now Hw Ht Labs) as (n1 & L1 & V1 & X1 & O1).
  destruct (warm_keeps _ (sv_key e) n1 reads now Ht O1 L1 X1) as (n2 & L2 & V2 & _ & _ & X2 & O2).
  assert (Hd : 0 < sv_exp e - now <= MaxInt64) by (unfold time_ok in Ht; lia).
  replace (Z.max 1 (wraps (sv_exp e - now))) with (sv_exp e - now) by (rewrite wraps_small; lia).
  pose proof (set_expires_after_live c _ _ _ n2 now Hw Ht Hd O2 L2 X2) as L3.
  replace (satadd now (sv_exp e - now)) with (sv_exp e) in L3 by (unfold time_ok in Ht; rewrite satadd_spec; lia).
  destruct (with_refr c && negb (sv_refr e =? MaxInt64)).
  - destruct (sra_keeps _ _ (Z.max 1 (wraps (sv_refr e - now))) now _ L3) as (n4 & L4 & V4 & E4 & _).
    exists n4. split; [exact L4|]. cbn [nval nexp] in *. split; congruence.
  - eexists. split; [exact L3|]. cbn [nval nexp]. split; congruence.
Qed.

(* nothing expired at load time is loaded *)
Theorem load_entry_skips_expired s e reads now :
  with_exp c = true -> sv_exp e <= now -> load_entry c s e reads now = s.
Proof. intros Hw He. unfold load_entry. rewrite Hw. replace (sv_exp e <=? now) with true by lia. reflexivity. Qed.

End P.
