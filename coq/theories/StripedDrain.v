(* StripedDrain.v — what a drain of the striped buffer delivers, at the level of the table model
   (Striped.v): DrainTo visits the rings of the current table; if from each of them it takes everything
   recorded in it (what RingProofs.quiescent_drain establishes for one ring), then over the whole buffer it
   delivers every element whose Add succeeded exactly once and nothing else — in every reachable state,
   for every schedule of the Adds. *)
From Coq Require Import List Arith Bool ZArith Lia Permutation.
Import ListNotations.
From Otter Require Import Base Striped StripedProofs.
Local Open Scope nat_scope.

Definition drain_all (s : sstate) : list Z := concat (map (fun r => nth r (rings s) []) (visible_rings s)).

Lemma map_nth_seq {A} (d : A) l : map (fun i => nth i l d) (seq 0 (length l)) = l.
Proof.
  induction l as [|h t IH]; [reflexivity|]. cbn [length seq map nth]. rewrite <- seq_shift, map_map. cbn [nth].
  rewrite IH. reflexivity.
Qed.

Lemma zcount_perm e l1 l2 : Permutation l1 l2 -> zcount e l1 = zcount e l2.
Proof.
  intros H. unfold zcount. induction H as [|x l l' _ IH|x y l|l l' l'' _ IH1 _ IH2]; cbn [filter].
  - reflexivity.
  - destruct (Z.eqb e x); cbn [length]; rewrite IH; reflexivity.
  - destruct (Z.eqb e x), (Z.eqb e y); reflexivity.
  - rewrite IH1. exact IH2.
Qed.

(* the visible rings are the ring ids 0..n-1 in some order, each once *)
Theorem drain_all_perm es s : Inv es s -> Permutation (drain_all s) (concat (rings s)).
Proof.
  intros I. unfold drain_all. rewrite <- (f_equal (@concat Z) (map_nth_seq [] (rings s))). rewrite <- !flat_map_concat_map.
  apply Permutation_flat_map. apply NoDup_Permutation; [exact (visible_nodup es s I)|apply seq_NoDup|].
  intros r. rewrite in_seq. split; [intros H; apply (visible_lt es s r I) in H; lia|intros [_ H]; exact (no_lost_ring es s I r H)].
Qed.

(* every element is delivered by a complete drain exactly once if its Add succeeded (or has placed it and
   is about to return Success), and not at all otherwise *)
Theorem drain_delivers_exactly_the_recorded maxl elems idxs sched j t :
  NoDup elems -> length idxs = length elems ->
  let s := srun (sinit maxl elems idxs) sched in
  nth_error (sths s) j = Some t ->
  zcount (elem t) (drain_all s) = b2n (placed t).
Proof.
  intros Hnd Hlen s Hj.
  rewrite (zcount_perm _ _ _ (drain_all_perm _ s (Inv_run _ sched _ (Inv_init maxl elems idxs)))).
  exact (recorded_iff_success maxl elems idxs sched j t Hnd Hlen Hj).
Qed.
