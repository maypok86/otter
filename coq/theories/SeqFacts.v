(* SeqFacts.v — direct facts about the concrete model's functions. *)
From Otter Require Import Base Seq Spec SeqRefine.
From Coq Require Import ZifyBool.
Local Open Scope Z_scope.

Ltac sts := cbn [fst snd cst cmap upd_st upd_map st_miss st_hit st_lsucc st_lfail st_evict hits misses lsucc lfail evictions evweight negb andb orb].

Section Facts.
Variable c : cfg.
Hypothesis CO : cfg_ok c.

(* C12: deadlines *)

Lemma satadd_no_wrap now d : time_ok now -> 0 < d <= MaxInt64 ->
  now < satadd now d <= MaxInt64 /\ satadd now d = Z.min MaxInt64 (now + d) /\
  (d = MaxInt64 -> satadd now d = MaxInt64).
Proof.
  unfold time_ok. intros Hn Hd. rewrite satadd_spec by lia. repeat split; lia.
Qed.

Lemma wraps_sub_small a b : 0 <= a <= MaxInt64 -> 0 <= b <= MaxInt64 -> wraps (a - b) = a - b.
Proof. intros. apply wraps_small. lia. Qed.

(* creation (no old node, or an expired one): exp = now + ExpireAfterCreate *)
Lemma create_exp k v old cl now :
  with_exp c = true -> time_ok now -> ogone c now old ->
  nexp (fst (atomic_set c k v old cl now)) = satadd now (exp_create c k v 0).
Proof.
  intros Hw Ht G. unfold atomic_set. cbn [fst].
  rewrite (proj2 (proj2 (calc_refr_fields c _ _ _ _ _))), (calc_exp_write_create c CO) by
    (try apply new_node_ok; try assumption; destruct G as [->|(o & -> & _ & O)]; intros ? [= <-]; assumption).
  reflexivity.
Qed.

(* update of a live entry: exp = now + ExpireAfterUpdate when that is a positive duration,
   unchanged when the calculator returns a non-positive duration *)
Lemma update_exp k v o cl now :
  with_exp c = true -> time_ok now -> node_ok o -> has_expired c o now = false ->
  let d := exp_update c k v (nval o) (nexp o - now) in
  nexp (fst (atomic_set c k v (Some o) cl now)) = if 0 <? d then satadd now d else nexp o.
Proof.
  intros Hw Ht [He Hr] X d.
  unfold atomic_set. cbn [fst]. rewrite (proj2 (proj2 (calc_refr_fields c _ _ _ _ _))).
  unfold calc_exp_write, new_node. rewrite Hw, X. cbn [negb nexp nval].
  unfold has_expired in X. rewrite Hw in X. cbn [andb] in X. unfold time_ok in Ht.
  rewrite wraps_small by lia. fold d.
  pose proof (eu_rng c CO k v (nval o) (nexp o - now) ltac:(lia)) as H. fold d in H.
  destruct (0 <? d) eqn:Ed; cbn [andb]; [|reflexivity].
  destruct (nexp o - now =? d) eqn:Eq; cbn [negb nexp]; [|reflexivity].
  rewrite satadd_spec by lia. lia.
Qed.

(* setExpiresAfterRead on a live entry with a positive duration: exp = now + duration *)
Lemma set_exp_after_read_exact n now d :
  time_ok now -> node_ok n -> now < nexp n -> 0 < d <= MaxInt64 ->
  set_exp_after_read n now d = mkNode (nval n) (nweight n) (satadd now d) (nrefr n).
Proof.
  intros Ht [He Hr] X Hd. unfold set_exp_after_read, time_ok in *. replace (d <=? 0) with false by lia.
  rewrite (wraps_small (nexp n - now)), (wraps_small (d - (nexp n - now))) by lia.
  destruct (0 <? abs64 _) eqn:E; [reflexivity|].
  destruct n as [nv nw ne nr]; cbn [nval nweight nexp nrefr] in *. f_equal.
  unfold abs64 in E. destruct (d - (ne - now) <? 0) eqn:Es; [rewrite wraps_small in E by lia; lia|].
  rewrite satadd_spec by lia. lia.
Qed.

Lemma read_exp k n now :
  with_exp c = true -> time_ok now -> node_ok n -> has_expired c n now = false ->
  let d := exp_read c k (nval n) (nexp n - now) in
  nexp (calc_exp_read c k n now) = if 0 <? d then satadd now d else nexp n.
Proof.
  intros Hw Ht On X d. unfold calc_exp_read. rewrite Hw. cbn [negb].
  unfold has_expired in X. rewrite Hw in X. cbn [andb] in X. pose proof On as [He _]. unfold time_ok in Ht.
  rewrite (wraps_small (nexp n - now)) by lia. fold d.
  pose proof (er_rng c CO k (nval n) (nexp n - now) ltac:(lia)) as H. fold d in H.
  destruct (0 <? d) eqn:Ed.
  - rewrite set_exp_after_read_exact by (assumption || lia). reflexivity.
  - unfold set_exp_after_read. replace (d <=? 0) with true by lia. reflexivity.
Qed.

(* SetExpiresAfter: overrides the deadline of a live entry, leaves everything else alone *)
Lemma set_expires_after_live s k d n now :
  with_exp c = true -> time_ok now -> 0 < d <= MaxInt64 -> node_ok n ->
  lookup k (cmap s) = Some n -> has_expired c n now = false ->
  lookup k (cmap (do_set_expires_after c s k d now)) =
  Some (mkNode (nval n) (nweight n) (satadd now d) (nrefr n)).
Proof.
  intros Hw Ht Hd On L X. unfold do_set_expires_after. rewrite Hw. cbn [negb orb].
  replace (d <=? 0) with false by lia. rewrite L, X. unfold upd_map; cbn [cmap].
  rewrite lookup_mutate_same, L. f_equal.
  unfold has_expired in X. rewrite Hw in X. cbn [andb] in X.
  apply set_exp_after_read_exact; assumption || lia.
Qed.

Lemma set_expires_after_dead s k d now :
  (lookup k (cmap s) = None \/ exists n, lookup k (cmap s) = Some n /\ has_expired c n now = true) ->
  do_set_expires_after c s k d now = s.
Proof.
  intros G. unfold do_set_expires_after. destruct (negb (with_exp c) || (d <=? 0)); [reflexivity|].
  destruct G as [L|(n & L & X)]; rewrite L; [reflexivity|]. rewrite X. reflexivity.
Qed.

(* visibility: an entry is visible exactly while the clock is before its expiration time *)
Lemma visible_iff s k now :
  with_exp c = true ->
  (exists n, get_node_quietly c s k now = Some n) <->
  (exists n, lookup k (cmap s) = Some n /\ now < nexp n).
Proof.
  intros Hw. unfold get_node_quietly, has_expired. rewrite Hw. cbn [andb]. split.
  - intros (n & H). destruct (lookup k (cmap s)) as [n0|]; [|discriminate].
    destruct (nexp n0 <=? now) eqn:E; [discriminate|]. exists n0. split; [reflexivity|lia].
  - intros (n & L & H). rewrite L. replace (nexp n <=? now) with false by lia. eauto.
Qed.

(* C20: statistics *)

Definition lookups (s : cstate) : Z := hits (cst s) + misses (cst s).
Definition loads (s : cstate) : Z := lsucc (cst s) + lfail (cst s).

Lemma get_node_counts s k now :
  lookups (fst (get_node c s k now)) = lookups s + 1 /\
  loads (fst (get_node c s k now)) = loads s /\
  evictions (cst (fst (get_node c s k now))) = evictions (cst s) /\
  (hits (cst (fst (get_node c s k now))) = hits (cst s) + 1 <->
   exists n, lookup k (cmap s) = Some n /\ has_expired c n now = false).
Proof.
  unfold get_node, lookups, loads. destruct (lookup k (cmap s)) as [n|] eqn:L.
  - destruct (has_expired c n now) eqn:X; sts.
    + split; [lia|]. split; [lia|]. split; [lia|]. split.
      * intros H. exfalso. lia.
      * intros (n0 & H1 & H2). injection H1 as <-. congruence.
    + split; [lia|]. split; [lia|]. split; [lia|]. split; [|lia]. intros _. eauto.
  - sts. split; [lia|]. split; [lia|]. split; [lia|]. split.
    + intros H. exfalso. lia.
    + intros (n0 & H1 & _). discriminate.
Qed.

Lemma finish_call_stats s k oc ir now : cst (fst (finish_call c s k oc ir now)) = cst s.
Proof.
  unfold finish_call. destruct oc as [v|v| |]; cbn [fst].
  - destruct (atomic_set c k v (lookup k (cmap s)) (Call ir false false) now); reflexivity.
  - destruct (lookup k (cmap s)); [destruct ir|]; reflexivity.
  - reflexivity.
  - destruct (lookup k (cmap s)); [destruct ir|]; reflexivity.
Qed.

Lemma run_load_counts s k old oc ir now :
  loads (fst (fst (run_load c s k old oc ir now))) = loads s + 1 /\
  lookups (fst (fst (run_load c s k old oc ir now))) = lookups s /\
  evictions (cst (fst (fst (run_load c s k old oc ir now)))) = evictions (cst s) /\
  (lfail (cst (fst (fst (run_load c s k old oc ir now)))) = lfail (cst s) + 1 <-> outcome_failed oc = true).
Proof.
  unfold run_load. pose proof (finish_call_stats s k oc ir now) as St.
  destruct (finish_call c s k oc ir now) as [s1 e1]. cbn [fst snd] in *.
  unfold load_stat, loads, lookups. destruct (outcome_failed oc); sts; rewrite St.
  - split; [lia|]. split; [lia|]. split; [lia|]. split; [reflexivity|lia].
  - split; [lia|]. split; [lia|]. split; [lia|]. split; [intros H; exfalso; lia|discriminate].
Qed.

(* C10 / C11: load outcomes *)

Lemma atomic_set_val k v old cl now : nval (fst (atomic_set c k v old cl now)) = v.
Proof.
  unfold atomic_set. cbn [fst].
  rewrite (proj1 (calc_refr_fields c _ _ _ _ _)), (proj1 (calc_exp_write_fields c _ _ _ _)). reflexivity.
Qed.

Lemma get_miss_value s k v now :
  (lookup k (cmap s) = None \/ exists n, lookup k (cmap s) = Some n /\ has_expired c n now = true) ->
  let r := do_get c s k (LValue v) now now in
  r_ret (snd r) = RLoad v 0 /\ r_cb (snd r) = [CbLoad k] /\
  exists n, lookup k (cmap (fst r)) = Some n /\ nval n = v.
Proof.
  intros G. unfold do_get.
  replace (get_node c s k now) with (upd_st s st_miss, @None node)
    by (unfold get_node; destruct G as [L|(n & L & X)]; rewrite L; [|rewrite X]; reflexivity).
  unfold run_load, finish_call.
  pose proof (atomic_set_val k v (lookup k (cmap (upd_st s st_miss))) (Call false false false) now) as V.
  destruct (atomic_set c k v _ _ now) as [nn evs]. cbn. rewrite Z.eqb_refl. eauto.
Qed.

(* a failed load (error or panic) that is not a reload leaves the cache as it is *)
Lemma finish_call_failed_load s k oc now : outcome_failed oc = true -> finish_call c s k oc false now = (s, []).
Proof.
  intros F. rewrite finish_call_failed by assumption. unfold fin_err. destruct (lookup k (cmap s)); reflexivity.
Qed.

Lemma finish_call_notfound_removes s k ir now :
  lookup k (cmap (fst (finish_call c s k LNotFound ir now))) = None.
Proof. unfold finish_call. cbn [fst]. unfold upd_map; cbn [cmap]. apply lookup_remove_same. Qed.

(* a failed reload leaves value and expiration deadline untouched (only the refresh time may move) *)
Lemma reload_failure_keeps s k v n now :
  lookup k (cmap s) = Some n ->
  exists n', lookup k (cmap (fst (finish_call c s k (LError v) true now))) = Some n' /\
             nval n' = nval n /\ nexp n' = nexp n /\ nweight n' = nweight n.
Proof.
  intros L. unfold finish_call. rewrite L. cbn [fst]. unfold upd_map; cbn [cmap].
  rewrite lookup_mutate_same, L. eexists. split; [reflexivity|].
  destruct (calc_refr_fields c k n (Some n) (Call true false true) now) as (A & B & C). auto.
Qed.

(* Get on a live entry: serves the cached value; hands exactly one reload (carrying that value)
   to the executor iff the entry is stale, nothing otherwise *)
Lemma get_hit s k oc n now :
  lookup k (cmap s) = Some n -> has_expired c n now = false ->
  let r := do_get c s k oc now now in
  r_ret (snd r) = RLoad (nval n) 0 /\ r_cb (snd r) = [] /\ r_events (snd r) = [] /\
  r_spawn (snd r) = (if is_fresh c n now then [] else [SpRefresh k (Some (nval n))]).
Proof.
  intros L X. unfold do_get, get_node. rewrite L, X. cbn [fst snd r_ret r_cb r_events r_spawn].
  destruct (calc_exp_read_fields c k n now) as (E1 & E2 & E3).
  rewrite E1. unfold is_fresh. rewrite E3. auto.
Qed.

Lemma loaded_pairs_spec ks m k v :
  In (k, v) (loaded_pairs ks m) <-> In k ks /\ assoc k m = Some v.
Proof.
  unfold loaded_pairs. rewrite in_flat_map. split.
  - intros (x & Hx & Hin). destruct (assoc x m) as [v0|] eqn:A; [|contradiction].
    destruct Hin as [E|[]]. injection E as <- <-. auto.
  - intros [Hk A]. exists k. split; [assumption|]. rewrite A. left; reflexivity.
Qed.

Lemma memZ_In k l : memZ k l = true <-> In k l.
Proof.
  unfold memZ. rewrite existsb_exists. split.
  - intros (x & Hx & E). apply Z.eqb_eq in E. subst. assumption.
  - intros H. exists k. split; [assumption|apply Z.eqb_refl].
Qed.

Lemma dedup_spec l : forall seen,
  NoDup (dedup l seen) /\ (forall k, In k (dedup l seen) <-> In k l /\ ~ In k seen).
Proof.
  induction l as [|x l IH]; intros seen; cbn [dedup].
  - split; [constructor|]. intros k. cbn. tauto.
  - destruct (memZ x seen) eqn:M.
    + apply memZ_In in M. destruct (IH seen) as [N S]. split; [assumption|].
      intros k. rewrite S. cbn. split; [tauto|]. intros [[->|H] H2]; [contradiction|tauto].
    + assert (Hn : ~ In x seen) by (intros H; apply memZ_In in H; congruence).
      destruct (IH (x :: seen)) as [N S]. split.
      * constructor; [|assumption]. rewrite S. cbn. tauto.
      * intros k. cbn. rewrite S. cbn. split.
        -- intros [->|[H1 H2]]; [tauto|]. tauto.
        -- intros [[->|H1] H2]; [tauto|]. destruct (Z.eq_dec x k); [tauto|]. right. tauto.
Qed.

Lemma bulk_read_partition now ks : forall s, NoDup ks ->
  let '(_, hits, stale, miss) := bulk_read c s ks now in
  (forall k, In k ks <-> In k (map fst hits) \/ In k miss) /\
  (forall k, In k (map fst stale) -> In k (map fst hits)) /\
  NoDup (map fst hits) /\ NoDup miss /\ (forall k, In k (map fst hits) -> ~ In k miss).
Proof.
  induction ks as [|k ks IH]; intros s Hnd; cbn [bulk_read].
  - cbn. split; [tauto|]. split; [tauto|]. split; [constructor|]. split; [constructor|]. tauto.
  - inversion Hnd as [|? ? Hn Hd]; subst.
    destruct (get_node c s k now) as [s1 g]. specialize (IH s1 Hd).
    destruct (bulk_read c s1 ks now) as [[[s2 h] st] m]. destruct IH as (P & S & N1 & N2 & D).
    assert (Hk : ~ In k (map fst h) /\ ~ In k m).
    { split; intros H; apply Hn; apply P; tauto. }
    destruct g as [n|]; cbn [map fst].
    + split; [intros x; cbn; rewrite P; tauto|]. split.
      { intros x. destruct (is_fresh c n now); cbn; intros H; [right; apply S; assumption|].
        destruct H as [H|H]; [left; assumption|right; apply S; assumption]. }
      split; [constructor; tauto|]. split; [assumption|].
      intros x [<-|H]; [tauto|apply D; assumption].
    + split; [intros x; cbn; rewrite P; tauto|]. split; [assumption|]. split; [assumption|].
      split; [constructor; tauto|].
      intros x H [<-|H2]; [tauto|]. apply (D x H H2).
Qed.

(* BulkGet returns exactly: the requested keys that were cached (hits) plus the requested missing
   keys the loader supplied; each distinct key at most once; the loader is invoked at most once
   and with exactly the distinct missing keys *)
Lemma bulk_get_result s ks m now :
  let '(s1, hits, stale, miss) := bulk_read c s (dedup ks []) now in
  let r := snd (do_bulk_get c s ks (BMap m) now now) in
  r_ret r = RBulk (hits ++ match miss with [] => [] | _ => loaded_pairs miss m end) 0 /\
  r_cb r = match miss with [] => [] | _ => [CbBulkLoad miss] end /\
  NoDup (map fst hits ++ miss) /\
  (forall k, In k ks <-> In k (map fst hits) \/ In k miss).
Proof.
  pose proof (dedup_spec ks []) as [ND DS].
  pose proof (bulk_read_partition now (dedup ks []) s ND) as BP.
  unfold do_bulk_get.
  destruct (bulk_read c s (dedup ks []) now) as [[[s1 h] st] mi].
  destruct BP as (P & S & N1 & N2 & D).
  assert (NDapp : NoDup (map fst h ++ mi)).
  { clear -N1 N2 D. induction (map fst h) as [|x l IH]; cbn; [assumption|].
    inversion N1; subst. constructor.
    - rewrite in_app_iff. intros [H|H]; [tauto|]. apply (D x (or_introl eq_refl) H).
    - apply IH; [assumption|]. intros y Hy. apply D. right. assumption. }
  assert (Hall : forall k, In k ks <-> In k (map fst h) \/ In k mi).
  { intros k. rewrite <- P. rewrite DS. cbn. tauto. }
  destruct mi as [|k0 mi].
  - cbn [snd r_ret r_cb]. rewrite app_nil_r. auto.
  - destruct (run_bulk c s1 (k0 :: mi) (BMap m) false now) as [s2 evs]. cbn [snd r_ret r_cb]. auto.
Qed.

End Facts.
