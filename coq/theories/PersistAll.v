(* PersistAll.v — SaveCacheTo / LoadCacheFrom over a whole file (persistence.go): the loop with its size
   cut-off around the per-entry program of Persist.v.  Every saved entry that is not expired at load
   time and not cut off is present afterwards with its key, value and deadline; nothing else appears;
   when the saved contents fit the target's maximum nothing is cut off. *)
From Otter Require Import Base Seq SeqRefine Persist.
From Coq Require Import ZifyBool.
Local Open Scope Z_scope.

(* the entries the loop hands to the per-entry program *)
Fixpoint taken (c : cfg) (maxi size : Z) (es : list saved) (now : Z) : list saved :=
  match es with
  | [] => []
  | e :: rest =>
      if (size >=? maxi) && (sv_weight e >? 0) then taken c maxi size rest now
      else if with_exp c && (sv_exp e <=? now) then taken c maxi size rest now
      else e :: taken c maxi (size + sv_weight e) rest now
  end.

Fixpoint load_all (c : cfg) (maxi : Z) (reads : Z -> nat) (s : cstate) (size : Z) (es : list saved) (now : Z) : cstate :=
  match es with
  | [] => s
  | e :: rest =>
      if (size >=? maxi) && (sv_weight e >? 0) then load_all c maxi reads s size rest now
      else if with_exp c && (sv_exp e <=? now) then load_all c maxi reads s size rest now
      else load_all c maxi reads (load_entry c s e (reads (size + sv_weight e)) now) (size + sv_weight e) rest now
  end.

(* SaveCacheTo: the same cut-off over the Hottest enumeration *)
Fixpoint save_list (maxi size : Z) (hot : list saved) : list saved :=
  match hot with
  | [] => []
  | e :: rest => if (size >=? maxi) && (sv_weight e >? 0) then save_list maxi size rest
                 else e :: save_list maxi (size + sv_weight e) rest
  end.

Lemma lookup_put_other k k' n m : k <> k' -> lookup k' (put k n m) = lookup k' m.
Proof.
  intros H. unfold put. cbn [lookup fst]. replace (k =? k') with false by lia. apply lookup_remove_other. exact H.
Qed.

Section F.
Variable c : cfg.

Lemma warm_frame k k' : k <> k' -> forall reads s now, lookup k' (cmap (warm c s k reads now)) = lookup k' (cmap s).
Proof.
  intros H. induction reads as [|r IH]; intros s now; [reflexivity|]. cbn [warm]. rewrite IH.
  unfold get_node. destruct (lookup k (cmap s)) as [n|]; [|reflexivity].
  destruct (has_expired c n now); [reflexivity|]. apply lookup_mutate_other, H.
Qed.

Lemma sea_frame k k' d now s : k <> k' -> lookup k' (cmap (do_set_expires_after c s k d now)) = lookup k' (cmap s).
Proof.
  intros H. unfold do_set_expires_after. destruct (negb (with_exp c) || (d <=? 0)); [reflexivity|].
  destruct (lookup k (cmap s)) as [n|]; [|reflexivity]. destruct (has_expired c n now); [reflexivity|].
  apply lookup_mutate_other, H.
Qed.

Lemma sra_frame k k' d now s : k <> k' -> lookup k' (cmap (do_set_refreshable_after c s k d now)) = lookup k' (cmap s).
Proof.
  intros H. unfold do_set_refreshable_after. destruct (negb (with_refr c) || (d <=? 0)); [reflexivity|].
  destruct (lookup k (cmap s)) as [n|]; [|reflexivity]. destruct (negb (wraps (nrefr n - now) =? d)); [|reflexivity].
  apply lookup_mutate_other, H.
Qed.

Lemma set_frame k k' v now s : k <> k' -> lookup k' (cmap (fst (do_set c s k v false now))) = lookup k' (cmap s).
Proof.
  intros H. unfold do_set. cbn [andb]. destruct (atomic_set c k v (lookup k (cmap s)) NoCall now) as [n evs].
  apply lookup_put_other, H.
Qed.

Lemma load_entry_frame s e reads now k' :
  sv_key e <> k' -> lookup k' (cmap (load_entry c s e reads now)) = lookup k' (cmap s).
Proof.
  intros H. unfold load_entry. destruct (with_exp c && (sv_exp e <=? now)); [reflexivity|].
  destruct (with_refr c && negb (sv_refr e =? MaxInt64)); [rewrite sra_frame by exact H|];
    (destruct (with_exp c && negb (sv_exp e =? MaxInt64)); [rewrite sea_frame by exact H|];
     rewrite warm_frame by exact H; apply set_frame, H).
Qed.

Lemma load_all_frame maxi reads now k' : forall es s size,
  ~ In k' (map sv_key es) -> lookup k' (cmap (load_all c maxi reads s size es now)) = lookup k' (cmap s).
Proof.
  induction es as [|e rest IH]; intros s size Hn; [reflexivity|]. cbn [load_all map In] in *.
  destruct ((size >=? maxi) && (sv_weight e >? 0)); [apply IH; tauto|].
  destruct (with_exp c && (sv_exp e <=? now)); [apply IH; tauto|].
  rewrite IH by tauto. apply load_entry_frame. tauto.
Qed.

Hypothesis CO : cfg_ok c.

(* every entry the loop takes, with a deadline in the future, is present afterwards with its key, value and
   deadline — whatever was loaded before and after it: the entries before it leave its key absent, the
   entries after it leave its key alone *)
Theorem load_all_present maxi reads now :
  with_exp c = true -> time_ok now ->
  forall es s size e,
  NoDup (map sv_key es) -> (forall k, In k (map sv_key es) -> lookup k (cmap s) = None) ->
  In e (taken c maxi size es now) -> sv_exp e < MaxInt64 ->
  exists n, lookup (sv_key e) (cmap (load_all c maxi reads s size es now)) = Some n /\ nval n = sv_val e /\ nexp n = sv_exp e.
Proof.
  intros Hw Ht. induction es as [|x rest IH]; intros s size e Hnd Habs Hin Hlt; [destruct Hin|].
  cbn [map] in Hnd. inversion Hnd as [|? ? Hx Hnd']; subst.
  cbn [taken load_all map In] in *.
  assert (Habs' : forall k, In k (map sv_key rest) -> lookup k (cmap s) = None) by auto.
  destruct ((size >=? maxi) && (sv_weight x >? 0)); [apply IH; assumption|].
  rewrite Hw in *. cbn [andb] in *.
  destruct (sv_exp x <=? now) eqn:Ex; [apply IH; assumption|].
  destruct Hin as [<-|Hin].
  - rewrite load_all_frame by exact Hx.
    apply (load_entry_exp c CO); [exact Hw|exact Ht|lia|auto].
  - apply IH; try assumption.
    intros k Hk. rewrite load_entry_frame; [auto|]. intros E. apply Hx. rewrite E. exact Hk.
Qed.

End F.

Lemma save_list_incl maxi : forall hot size e, In e (save_list maxi size hot) -> In e hot.
Proof.
  induction hot as [|x rest IH]; intros size e H; [destruct H|]. cbn [save_list] in H.
  destruct ((size >=? maxi) && (sv_weight x >? 0)); [right; eapply IH; exact H|].
  destruct H as [<-|H]; [left; reflexivity|right; eapply IH; exact H].
Qed.

Lemma save_list_keeps_pinned maxi : forall hot size e, In e hot -> sv_weight e = 0 -> In e (save_list maxi size hot).
Proof.
  induction hot as [|x rest IH]; intros size e H Hz; [destruct H|]. cbn [save_list].
  destruct H as [->|H].
  - replace (sv_weight e >? 0) with false by lia. rewrite andb_false_r. left. reflexivity.
  - destruct ((size >=? maxi) && (sv_weight x >? 0)); [apply IH; assumption|right; apply IH; assumption].
Qed.

Lemma weight_filter p : forall es, (forall e, In e es -> 0 <= sv_weight e) ->
  0 <= fold_right (fun e acc => sv_weight e + acc) 0 (filter p es) <= fold_right (fun e acc => sv_weight e + acc) 0 es.
Proof.
  induction es as [|x rest IH]; intros Hw; cbn [filter fold_right]; [lia|].
  pose proof (Hw x (or_introl eq_refl)). pose proof (IH (fun e He => Hw e (or_intror He))).
  destruct (p x); cbn [fold_right]; lia.
Qed.

Lemma save_list_all_when_fits maxi : forall hot size,
  (forall e, In e hot -> 0 <= sv_weight e) ->
  size + fold_right (fun e acc => sv_weight e + acc) 0 hot <= maxi ->
  save_list maxi size hot = hot.
Proof.
  induction hot as [|x rest IH]; intros size Hw Hfit; [reflexivity|]. cbn [save_list fold_right] in *.
  pose proof (Hw x (or_introl eq_refl)). pose proof (weight_filter (fun _ => true) rest (fun e He => Hw e (or_intror He))).
  replace ((size >=? maxi) && (sv_weight x >? 0)) with false by lia.
  f_equal. apply IH; [intros e He; apply Hw; right; exact He|lia].
Qed.

Lemma taken_save_list c maxi now : forall es size,
  taken c maxi size es now = save_list maxi size (filter (fun e => negb (with_exp c && (sv_exp e <=? now))) es).
Proof.
  induction es as [|x rest IH]; intros size; [reflexivity|]. cbn [taken filter].
  destruct (with_exp c && (sv_exp x <=? now)); cbn [negb save_list];
    destruct ((size >=? maxi) && (sv_weight x >? 0)); rewrite IH; reflexivity.
Qed.

Lemma taken_incl c maxi now es size e : In e (taken c maxi size es now) -> In e es.
Proof. rewrite taken_save_list. intros H. apply save_list_incl in H. apply filter_In in H. apply H. Qed.

Lemma taken_all_when_fits c maxi now es size :
  (forall e, In e es -> 0 <= sv_weight e) ->
  size + fold_right (fun e acc => sv_weight e + acc) 0 es <= maxi ->
  taken c maxi size es now = filter (fun e => negb (with_exp c && (sv_exp e <=? now))) es.
Proof.
  intros Hw Hfit. rewrite taken_save_list. apply save_list_all_when_fits.
  - intros e He. apply filter_In in He. apply Hw, He.
  - pose proof (weight_filter (fun e => negb (with_exp c && (sv_exp e <=? now))) es Hw). lia.
Qed.
