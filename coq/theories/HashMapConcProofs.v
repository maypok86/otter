(* HashMapConcProofs.v — for every schedule of the hash table's concurrency protocol (HashMapConc.v), any
   number of concurrent Computes, any hash functions: the table m.table points to always holds exactly
   the abstract map obtained by applying the writers' functions one after the other (no update is lost
   across a resize, every function sees the current binding); bucket locks and the resizing flag are
   mutual exclusions; a resize never publishes a table that misses an admitted writer's update. *)
From Coq Require Import Arith.
From Otter Require Import Base HashMapConc.
Local Open Scope nat_scope.

Definition b2n (b : bool) : nat := if b then 1 else 0.
Lemma b2n_le1 b : b2n b <= 1. Proof. destruct b; cbn; lia. Qed.

Definition hcnt (f : hthread -> bool) (l : list hthread) : nat := length (filter f l).
Lemma hcnt_cons f t l : hcnt f (t :: l) = b2n (f t) + hcnt f l.
Proof. exact (count_cons f t l). Qed.

Lemma hcnt_zero f l : hcnt f l = 0 <-> forall t, In t l -> f t = false.
Proof. exact (count_zero f l). Qed.

Lemma hcnt_pos_ex f l : 1 <= hcnt f l -> exists j u, nth_error l j = Some u /\ f u = true.
Proof. exact (count_pos f l). Qed.

(* [upd_nth] is the same fixpoint as [upd] of Base.v, whose lemmas therefore apply to it as they stand. *)

Lemma length_upd_nth {A} (x : A) l i : length (upd_nth i x l) = length l.
Proof. exact (upd_length i x l). Qed.

Lemma hcnt_upd f x l i old :
  nth_error l i = Some old -> hcnt f (upd_nth i x l) + b2n (f old) = hcnt f l + b2n (f x).
Proof. intros H. exact (proj2 (count_upd f x l i old H)). Qed.

Lemma nth_error_upd_nth {A} (x : A) l i j :
  nth_error (upd_nth i x l) j = if Nat.eqb j i then option_map (fun _ => x) (nth_error l j) else nth_error l j.
Proof. exact (nth_error_upd i j x l). Qed.

Lemma nth_upd_cases {A} (l : list A) i j x u :
  nth_error (upd_nth i x l) j = Some u -> (j = i /\ u = x) \/ (j <> i /\ nth_error l j = Some u).
Proof. exact (nth_error_upd_inv i j x u l). Qed.

Lemma upd_all {A} (P : A -> Prop) (l : list A) i x :
  (forall j u, nth_error l j = Some u -> P u) -> P x -> forall j u, nth_error (upd_nth i x l) j = Some u -> P u.
Proof. exact (Base.upd_all P i x l). Qed.

Definition pc_in (p : hpc) (l : list hpc) : bool :=
  existsb (fun q => match p, q with
                    | W0, W0 | W1, W1 | W2, W2 | Wwait, Wwait | W3, W3 | W4, W4 | W5, W5 | Wadd, Wadd | W6, W6
                    | R0, R0 | Rwait, Rwait | R1, R1 | R2, R2 | R3, R3 | HDone, HDone | G0, G0 | G1, G1 | GDone, GDone | I0, I0 | I1, I1 | IDone, IDone => true
                    | _, _ => false end) l.

Definition holder (g i : nat) (t : hthread) : bool :=
  pc_in (hpc_ t) [W2; W3; W4; W5] && Nat.eqb (hsnap t) g && Nat.eqb (hbi t) i.
Definition resz (t : hthread) : bool := pc_in (hpc_ t) [R1; R2; R3].

(* Every thread is [set_pc t p] for its own pc: a proof about a step takes the stepping thread in this
   form and, once [p] is a constructor, [holder], [resz] and the like compute. *)
Lemma set_pc_id t : set_pc t (hpc_ t) = t.
Proof. destruct t; reflexivity. Qed.

Lemma lock_taken (lk : nat -> nat -> bool) g0 b0 g b : lk g0 b0 = false ->
  b2n (Nat.eqb g0 g && Nat.eqb b0 b) + b2n (lk g b) = b2n (upd_fun2 lk g0 b0 true g b).
Proof.
  intros E. unfold upd_fun2. rewrite (Nat.eqb_sym g0), (Nat.eqb_sym b0).
  destruct (Nat.eqb_spec g g0) as [->|], (Nat.eqb_spec b b0) as [->|]; rewrite ?E; reflexivity.
Qed.

Arguments bidx_of : simpl never.
Arguments len_of : simpl never.
Arguments upd_fun2 : simpl never.
Arguments upd_store : simpl never.
Arguments upd_fun : simpl never.

(* [step Hi] wants [Hi] in the form [set_pc t p]; [side] closes what computing with the program counters decides. *)
Ltac calc := cbn -[Nat.ltb Nat.max Nat.div Nat.mul].
Ltac step Hi := unfold hstep, ret_pc; rewrite Hi; calc.
Ltac side := calc; try (intros; (reflexivity || discriminate)).

Section Proofs.
Variable hidx : nat -> Z -> nat.
Variable KU : list Z.

Record HCInv (s : hcstate) : Prop := {
  iv_cur : hcur s < length (lens s);
  iv_len : Forall (fun n => 1 <= n) (lens s);
  iv_lock : forall g i, hcnt (holder g i) (hths s) = b2n (lk s g i);
  iv_resz : hcnt resz (hths s) = b2n (resizing s);
  iv_bi : forall j t, nth_error (hths s) j = Some t -> pc_in (hpc_ t) [W1; W2; W3; W4; W5] = true ->
          hbi t = bidx_of hidx s (hsnap t) (hkey t) /\ hsnap t < length (lens s);
  iv_w4 : forall j t, nth_error (hths s) j = Some t -> hpc_ t = W4 -> hsnap t = hcur s;
  iv_adm : forall j t jr r, nth_error (hths s) j = Some t -> nth_error (hths s) jr = Some r ->
           pc_in (hpc_ t) [W3; W4] = true -> hsnap t = hcur s -> pc_in (hpc_ r) [R1; R2] = true -> hcop r (hbi t) = false;
  iv_rs : forall jr r, nth_error (hths s) jr = Some r -> pc_in (hpc_ r) [R1; R2] = true ->
          hsnap r = hcur s /\ (hpc_ r = R2 -> forall b, b < len_of s (hcur s) -> hcop r b = true) /\ 1 <= hnlen r /\
          forall k, hnt r k = if hcop r (bidx_of hidx s (hsnap r) k) then stores s (hsnap r) k else None;
  iv_spec : forall k, stores s (hcur s) k = spec s k
}.

Lemma len_of_pos s g : Forall (fun n => 1 <= n) (lens s) -> 1 <= len_of s g.
Proof.
  intros H. unfold len_of. destruct (Nat.lt_ge_cases g (length (lens s))) as [Hlt|Hge].
  - rewrite Forall_forall in H. apply H. apply nth_In. exact Hlt.
  - rewrite nth_overflow by exact Hge. lia.
Qed.

Lemma bidx_lt s g k : Forall (fun n => 1 <= n) (lens s) -> bidx_of hidx s g k < len_of s g.
Proof. intros H. unfold bidx_of. apply Nat.mod_upper_bound. pose proof (len_of_pos s g H). lia. Qed.

Lemma no_resz s : HCInv s -> resizing s = false -> forall j t, nth_error (hths s) j = Some t -> resz t = false.
Proof. intros I E j t Hj. apply (hcnt_zero resz (hths s)); [rewrite (iv_resz s I), E; reflexivity|exact (nth_error_In _ _ Hj)]. Qed.

Lemma no_holder s : HCInv s -> forall g b, lk s g b = false -> forall j t, nth_error (hths s) j = Some t -> holder g b t = false.
Proof. intros I g b E j t Hj. apply (hcnt_zero (holder g b) (hths s)); [rewrite (iv_lock s I), E; reflexivity|exact (nth_error_In _ _ Hj)]. Qed.

Lemma holder_locked s i t : HCInv s -> nth_error (hths s) i = Some t -> pc_in (hpc_ t) [W2; W3; W4; W5] = true ->
  lk s (hsnap t) (hbi t) = true.
Proof.
  intros I Hi Hp. destruct (lk s (hsnap t) (hbi t)) eqn:E; [reflexivity|].
  pose proof (no_holder s I _ _ E i t Hi) as H. unfold holder in H. rewrite Hp, !Nat.eqb_refl in H. discriminate H.
Qed.

Lemma holder_release s i t : HCInv s -> nth_error (hths s) i = Some t -> pc_in (hpc_ t) [W2; W3; W4; W5] = true ->
  forall g b, b2n (lk s g b) = b2n (Nat.eqb (hsnap t) g && Nat.eqb (hbi t) b) + b2n (upd_fun2 (lk s) (hsnap t) (hbi t) false g b).
Proof.
  intros I Hi Hp g b. pose proof (holder_locked s i t I Hi Hp) as E. unfold upd_fun2.
  rewrite (Nat.eqb_sym (hsnap t)), (Nat.eqb_sym (hbi t)).
  destruct (Nat.eqb_spec g (hsnap t)) as [->|], (Nat.eqb_spec b (hbi t)) as [->|]; rewrite ?E; cbn; lia.
Qed.

Lemma resz_one s : HCInv s -> forall j1 t1 j2 t2,
  nth_error (hths s) j1 = Some t1 -> nth_error (hths s) j2 = Some t2 -> resz t1 = true -> resz t2 = true -> j1 = j2.
Proof.
  intros I j1 t1 j2 t2 H1 H2 R1' R2'. destruct (Nat.eq_dec j1 j2) as [|Hn]; [assumption|exfalso].
  pose proof (iv_resz s I) as Hc. pose proof (b2n_le1 (resizing s)) as Hb.
  pose proof (hcnt_upd resz (set_pc t1 HDone) (hths s) j1 t1 H1) as U1.
  pose proof (hcnt_upd resz (set_pc t2 HDone) (upd_nth j1 (set_pc t1 HDone) (hths s)) j2 t2) as U2.
  rewrite nth_error_upd_nth, (proj2 (Nat.eqb_neq j2 j1)) in U2 by auto. specialize (U2 H2).
  rewrite R1' in U1. rewrite R2' in U2. cbn in U1, U2. lia.
Qed.

(* thread i moves from [t] to [t'], touching beside its own fields only locks, the flag and the counters *)
Lemma inv_gen {s i t t' lk' rz' cnt'} :
  HCInv s -> nth_error (hths s) i = Some t ->
  (forall g b, b2n (holder g b t') + b2n (lk s g b) = b2n (holder g b t) + b2n (lk' g b)) ->
  b2n (resz t') + b2n (resizing s) = b2n (resz t) + b2n rz' ->
  (pc_in (hpc_ t') [W1; W2; W3; W4; W5] = true -> hbi t' = bidx_of hidx s (hsnap t') (hkey t') /\ hsnap t' < length (lens s)) ->
  (hpc_ t' = W4 -> hsnap t' = hcur s) ->
  (pc_in (hpc_ t') [W3; W4] = true -> hsnap t' = hcur s -> forall jr r, jr <> i -> nth_error (hths s) jr = Some r ->
     pc_in (hpc_ r) [R1; R2] = true -> hcop r (hbi t') = false) ->
  (pc_in (hpc_ t') [R1; R2] = true -> forall j u, j <> i -> nth_error (hths s) j = Some u ->
     pc_in (hpc_ u) [W3; W4] = true -> hsnap u = hcur s -> hcop t' (hbi u) = false) ->
  (pc_in (hpc_ t') [R1; R2] = true ->
     hsnap t' = hcur s /\ (hpc_ t' = R2 -> forall b, b < len_of s (hcur s) -> hcop t' b = true) /\ 1 <= hnlen t' /\
     forall k, hnt t' k = if hcop t' (bidx_of hidx s (hsnap t') k) then stores s (hsnap t') k else None) ->
  HCInv (mkHcs (lens s) (stores s) lk' (hcur s) rz' (spec s) (hist s) (froz s) cnt' (ulog s) (upd_nth i t' (hths s))).
Proof.
  intros I Hi Hh Hr Hbi Hw4 Hadm1 Hadm2 Hrs.
  constructor; cbn [lens stores lk hcur resizing spec hths].
  - apply (iv_cur s I).
  - apply (iv_len s I).
  - intros g b. pose proof (hcnt_upd (holder g b) t' _ i t Hi) as U. specialize (Hh g b). pose proof (iv_lock s I g b). lia.
  - pose proof (hcnt_upd resz t' _ i t Hi) as U. pose proof (iv_resz s I). lia.
  - exact (upd_all _ _ _ _ (iv_bi s I) Hbi).
  - exact (upd_all _ _ _ _ (iv_w4 s I) Hw4).
  - intros j u jr r Hj Hjr Hp Hs Hpr.
    destruct (nth_upd_cases _ _ _ _ _ Hj) as [[-> ->]|[? Hj']], (nth_upd_cases _ _ _ _ _ Hjr) as [[-> ->]|[? Hjr']].
    + destruct (hpc_ t'); discriminate.
    + eapply Hadm1; eassumption.
    + eapply Hadm2; eassumption.
    + eapply (iv_adm s I); eassumption.
  - exact (upd_all _ _ _ _ (iv_rs s I) Hrs).
  - apply (iv_spec s I).
Qed.

(* a write to the current table, outside the buckets a resize has copied, and mirrored in [spec] *)
Lemma inv_write s st' sp' hi' ul' :
  HCInv s ->
  (forall jr r k, nth_error (hths s) jr = Some r -> pc_in (hpc_ r) [R1; R2] = true ->
     hcop r (bidx_of hidx s (hcur s) k) = true -> st' (hcur s) k = stores s (hcur s) k) ->
  (forall k, st' (hcur s) k = sp' k) ->
  HCInv (mkHcs (lens s) st' (lk s) (hcur s) (resizing s) sp' hi' (froz s) (cnt s) ul' (hths s)).
Proof.
  intros [C L Lk Rz Bi W Ad Rs Sp] Hw Hsp.
  constructor; cbn [lens stores lk hcur resizing spec hths];
    [exact C|exact L|exact Lk|exact Rz|exact Bi|exact W|exact Ad| |exact Hsp].
  intros jr r Hjr Hp. destruct (Rs jr r Hjr Hp) as (Hsn & Hfull & Hnl & Hnt).
  split; [exact Hsn|]. split; [exact Hfull|]. split; [exact Hnl|].
  intros k. rewrite Hnt. change (bidx_of hidx _ (hsnap r) k) with (bidx_of hidx s (hsnap r) k).
  destruct (hcop r _) eqn:E; [|reflexivity]. rewrite Hsn in *. symmetry. exact (Hw jr r k Hjr Hp E).
Qed.

(* the update: the writer sits on the current table, in a bucket the resize has not copied *)
Lemma step_W4 s i t o : HCInv s -> nth_error (hths s) i = Some t -> hpc_ t = W4 -> HCInv (hstep hidx KU s i o).
Proof.
  intros I Hi Hp. rewrite <- (set_pc_id t), Hp in Hi. clear Hp. step Hi. destruct o as [|o].
  2:{ apply (inv_gen I Hi); side.
      exact (holder_release s i _ I Hi eq_refl). }
  pose proof (iv_w4 s I i _ Hi eq_refl) as Hsn. pose proof (iv_bi s I i _ Hi eq_refl) as Hb. cbn in Hsn, Hb.
  eapply (@inv_gen (mkHcs (lens s) _ (lk s) (hcur s) (resizing s) _ _ (froz s) (cnt s) _ (hths s)) i (set_pc t W4)); side.
  - apply inv_write; [exact I| |].
    + intros jr r k Hjr Hpr Hc. unfold upd_store, upd_fun. rewrite Hsn, Nat.eqb_refl.
      destruct (Z.eqb_spec k (hkey t)) as [->|]; [|reflexivity].
      pose proof (iv_adm s I i _ jr r Hi Hjr eq_refl Hsn Hpr) as Hn. cbn in Hn.
      rewrite (proj1 Hb), Hsn, Hc in Hn. discriminate Hn.
    + intros k. unfold upd_store, upd_fun. rewrite Hsn, Nat.eqb_refl, !(iv_spec s I). reflexivity.
  - exact Hi.
  - intros _. exact Hb.
Qed.

(* the copy of a bucket whose lock is free: no admitted writer sits in it *)
Lemma step_R1 s i t o : HCInv s -> nth_error (hths s) i = Some t -> hpc_ t = R1 -> HCInv (hstep hidx KU s i o).
Proof.
  intros I Hi Hp. rewrite <- (set_pc_id t), Hp in Hi. clear Hp. step Hi.
  destruct (iv_rs s I i _ Hi eq_refl) as (Hsn & _ & Hnl & Hnt). cbn in Hsn, Hnl, Hnt.
  assert (Had : forall j u, nth_error (hths s) j = Some u -> pc_in (hpc_ u) [W3; W4] = true -> hsnap u = hcur s ->
                hcop t (hbi u) = false) by (intros j u Hj Hpu Hsu; exact (iv_adm s I j u i _ Hj Hi Hpu Hsu eq_refl)).
  destruct (forallb (hcop t) (seq 0 (len_of s (hsnap t)))) eqn:Eall.
  - apply (inv_gen I Hi); side.
    + intros _ j u _. apply Had.
    + intros _. split; [exact Hsn|]. split; [|split; [exact Hnl|exact Hnt]].
      intros _ b Hb. rewrite forallb_forall in Eall. apply Eall. apply in_seq. rewrite Hsn. lia.
  - destruct (Nat.ltb o (len_of s (hsnap t))); cbn [andb]; [|exact I].
    destruct (hcop t o) eqn:Eco; cbn [negb andb]; [exact I|].
    destruct (lk s (hsnap t) o) eqn:E; cbn [negb]; [exact I|].
    apply (inv_gen I Hi); side.
    + intros _ j u _ Hj Hpu Hsu.
      pose proof (no_holder s I _ _ E j u Hj) as Hh. unfold holder in Hh.
      assert (Hpu' : pc_in (hpc_ u) [W2; W3; W4; W5] = true) by (destruct (hpc_ u); try discriminate Hpu; reflexivity).
      rewrite Hpu', Hsu, <- Hsn, Nat.eqb_refl in Hh. cbn [andb] in Hh. rewrite Hh. exact (Had j u Hj Hpu Hsu).
    + intros _. split; [exact Hsn|]. split; [discriminate|]. split; [exact Hnl|].
      intros k. rewrite Hnt. destruct (Nat.eqb (bidx_of hidx s (hsnap t) k) o); reflexivity.
Qed.

(* the publication: every bucket is copied, so no writer is inside the old table's update section *)
Lemma step_R2 s i t o : HCInv s -> nth_error (hths s) i = Some t -> hpc_ t = R2 -> HCInv (hstep hidx KU s i o).
Proof.
  intros I Hi Hp. rewrite <- (set_pc_id t), Hp in Hi. clear Hp. step Hi.
  destruct (iv_rs s I i _ Hi eq_refl) as (Hsn & Hfull & Hnl & Hnt). cbn in Hsn, Hfull, Hnl, Hnt. specialize (Hfull eq_refl).
  assert (Hnone : forall j u, nth_error (hths s) j = Some u -> pc_in (hpc_ u) [W3; W4] = true -> hsnap u = hcur s -> False).
  { intros j u Hj Hpu Hsu. pose proof (iv_adm s I j u i _ Hj Hi Hpu Hsu eq_refl) as Hge. cbn in Hge.
    assert (Hpw : pc_in (hpc_ u) [W1; W2; W3; W4; W5] = true) by (destruct (hpc_ u); try discriminate Hpu; reflexivity).
    destruct (iv_bi s I j u Hj Hpw) as [Hb _]. pose proof (bidx_lt s (hsnap u) (hkey u) (iv_len s I)) as Hl.
    rewrite Hsu in *. rewrite Hfull in Hge by lia. discriminate Hge. }
  pose proof (iv_cur s I) as Hc.
  constructor; cbn [lens stores lk hcur resizing spec hths].
  - rewrite app_length. cbn. lia.
  - apply Forall_app. split; [apply (iv_len s I)|constructor; [exact Hnl|constructor]].
  - intros g b. rewrite <- (iv_lock s I g b). pose proof (hcnt_upd (holder g b) (set_pc (set_pc t R2) R3) _ i _ Hi) as U. cbn in U. lia.
  - rewrite <- (iv_resz s I). pose proof (hcnt_upd resz (set_pc (set_pc t R2) R3) _ i _ Hi) as U. cbn in U. lia.
  - refine (upd_all _ _ _ _ _ _); [|discriminate]. intros j u Hj Hpu.
    destruct (iv_bi s I j u Hj Hpu) as [Hb Hl]. split; [|rewrite app_length; lia].
    rewrite Hb. unfold bidx_of, len_of. cbn [lens]. rewrite app_nth1 by exact Hl. reflexivity.
  - refine (upd_all _ _ _ _ _ _); [|discriminate]. intros j u Hj Hpu. exfalso.
    apply (Hnone j u Hj); [rewrite Hpu; reflexivity|apply (iv_w4 s I j u Hj Hpu)].
  - intros j u jr r Hj _ Hpu Hsu _. destruct (nth_upd_cases _ _ _ _ _ Hj) as [[_ ->]|[_ Hj']]; [discriminate Hpu|].
    assert (Hpw : pc_in (hpc_ u) [W1; W2; W3; W4; W5] = true) by (destruct (hpc_ u); try discriminate Hpu; reflexivity).
    destruct (iv_bi s I j u Hj' Hpw) as [_ Hl]. lia.
  - intros jr r Hjr Hpr. destruct (nth_upd_cases _ _ _ _ _ Hjr) as [[_ ->]|[Hne Hjr']]; [discriminate Hpr|].
    assert (Hrr : resz r = true) by (unfold resz; destruct (hpc_ r); try discriminate Hpr; reflexivity).
    destruct (Hne (resz_one s I jr r i _ Hjr' Hi Hrr eq_refl)).
  - intros k. unfold upd_store. rewrite Nat.eqb_refl, Hnt, Hsn, (Hfull _ (bidx_lt s (hcur s) k (iv_len s I))). apply (iv_spec s I).
Qed.

Theorem HCInv_step s i o : HCInv s -> HCInv (hstep hidx KU s i o).
Proof.
  intros I. destruct (nth_error (hths s) i) as [t|] eqn:Hi; [|unfold hstep; rewrite Hi; exact I].
  rewrite <- (set_pc_id t) in Hi. destruct (hpc_ t).
  - (* W0 *) step Hi. apply (inv_gen I Hi); side. intros _. split; [reflexivity|apply (iv_cur s I)].
  - (* W1 *) step Hi. destruct (lk s (hsnap t) (hbi t)) eqn:E; [exact I|]. apply (inv_gen I Hi); side.
    + intros g b. apply lock_taken. exact E.
    + intros _. exact (iv_bi s I i _ Hi eq_refl).
  - (* W2 *) step Hi. destruct (resizing s) eqn:E; apply (inv_gen I Hi); side.
    + exact (holder_release s i _ I Hi eq_refl).
    + rewrite E. reflexivity.
    + intros _. exact (iv_bi s I i _ Hi eq_refl).
    + intros _ _ jr r _ Hjr Hpr. pose proof (no_resz s I E jr r Hjr) as Hn. unfold resz in Hn. destruct (hpc_ r); discriminate.
  - (* Wwait *) step Hi. destruct (resizing s); [exact I|]. apply (inv_gen I Hi); side.
  - (* W3 *) step Hi. destruct (Nat.eqb_spec (hcur s) (hsnap t)) as [E|E]; apply (inv_gen I Hi); side.
    + intros _. exact (iv_bi s I i _ Hi eq_refl).
    + intros _. symmetry. exact E.
    + intros _ _ jr r _ Hjr Hpr. exact (iv_adm s I i _ jr r Hi Hjr eq_refl (eq_sym E) Hpr).
    + exact (holder_release s i _ I Hi eq_refl).
  - (* W4 *) exact (step_W4 s i _ o I Hi eq_refl).
  - (* W5 *) step Hi. apply (inv_gen I Hi); side. exact (holder_release s i _ I Hi eq_refl).
  - (* Wadd *) step Hi. apply (inv_gen I Hi); side.
  - (* W6 *) step Hi. destruct o; apply (inv_gen I Hi); side.
  - (* R0 *) step Hi. destruct (resizing s) eqn:E; [|destruct o]; apply (inv_gen I Hi); side.
    + rewrite E. reflexivity.
    + intros _. split; [reflexivity|]. split; [discriminate|]. split; [|reflexivity].
      pose proof (len_of_pos s (hcur s) (iv_len s I)). destruct (Nat.eqb (hnlen t) 1); lia.
    + rewrite E. reflexivity.
  - (* Rwait *) step Hi. destruct (resizing s); [exact I|]. destruct (hretry t); apply (inv_gen I Hi); side.
  - (* R1 *) exact (step_R1 s i _ o I Hi eq_refl).
  - (* R2 *) exact (step_R2 s i _ o I Hi eq_refl).
  - (* R3 *) step Hi.
    assert (E : resizing s = true) by (destruct (resizing s) eqn:E; [reflexivity|discriminate (no_resz s I E i _ Hi)]).
    destruct (hretry t); apply (inv_gen I Hi); side; rewrite E; reflexivity.
  - (* HDone *) step Hi. exact I.
  - (* G0 *) step Hi. apply (inv_gen I Hi); side.
  - (* G1 *) step Hi. apply (inv_gen I Hi); side.
  - (* GDone *) step Hi. exact I.
  - (* I0 *) step Hi. apply (inv_gen I Hi); side.
  - (* I1 *) step Hi. destruct (Nat.ltb (hbi t) (len_of s (hsnap t))); [destruct (lk s (hsnap t) (hbi t)); [exact I|]|];
      apply (inv_gen I Hi); side.
  - (* IDone *) step Hi. exact I.
Qed.

Lemma HCInv_run sched : forall s, HCInv s -> HCInv (hrun hidx KU s sched).
Proof.
  induction sched as [|e sched IH]; intros s I; [exact I|]. cbn [hrun fold_left]. apply IH. apply HCInv_step. exact I.
Qed.

Lemma init_all n0 ops (P : hthread -> Prop) :
  (forall o, In o ops -> P (thread_of o)) -> forall j t, nth_error (hths (hinit n0 ops)) j = Some t -> P t.
Proof. intros H j t Hj. apply nth_error_In, in_map_iff in Hj. destruct Hj as (o & <- & Hin). exact (H o Hin). Qed.

Lemma HCInv_init n0 ops : 1 <= n0 -> HCInv (hinit n0 ops).
Proof.
  intros Hn. constructor.
  - cbn. lia.
  - cbn. constructor; [exact Hn|constructor].
  - intros g b. apply hcnt_zero. intros t Ht. apply in_map_iff in Ht. destruct Ht as ([| |] & <- & _); reflexivity.
  - apply hcnt_zero. intros t Ht. apply in_map_iff in Ht. destruct Ht as ([| |] & <- & _); reflexivity.
  - refine (init_all _ _ _ _). intros [| |]; discriminate.
  - refine (init_all _ _ _ _). intros [| |]; discriminate.
  - intros j t jr r Hj _. revert j t Hj. refine (init_all _ _ _ _). intros [| |]; discriminate.
  - refine (init_all _ _ _ _). intros [| |]; discriminate.
  - intros k. reflexivity.
Qed.

Definition dflt : Z -> option Z := fun _ => None.
(* a thread has applied its function: past its update step; while resizing: unless it asked for the
   resize before its update *)
Definition applied (t : hthread) : bool :=
  pc_in (hpc_ t) [W5; Wadd; W6; HDone] || (pc_in (hpc_ t) [R0; Rwait; R1; R2; R3] && negb (hretry t)).

(* an iteration in progress: the buckets below [hbi] have been read; every key of those buckets was
   yielded with the binding it had in the abstract map at index [hwitf k], not older than the iteration *)
Definition iter_ok (s : hcstate) (t : hthread) : Prop :=
  1 <= hst t <= length (hist s) /\ hsnap t <= hcur s /\ (hsnap t < hcur s -> hst t - 1 <= froz s (hsnap t)) /\
  (hpc_ t = IDone -> len_of s (hsnap t) <= hbi t) /\
  forall k, bidx_of hidx s (hsnap t) k < hbi t ->
            hst t - 1 <= hwitf t k < length (hist s) /\ nth (hwitf t k) (hist s) dflt k = hyield t k.

Record HRInv (s : hcstate) : Prop := {
  r_last : S (hcur s) = length (lens s);
  r_hist : 1 <= length (hist s);
  r_spec : forall k, spec s k = nth (length (hist s) - 1) (hist s) dflt k;
  r_froz : forall g, g < hcur s -> froz s g < length (hist s) /\ forall k, stores s g k = nth (froz s g) (hist s) dflt k;
  r_rd : forall j t, nth_error (hths s) j = Some t -> hpc_ t = G1 ->
         1 <= hst t <= length (hist s) /\ hsnap t <= hcur s /\ (hsnap t < hcur s -> hst t - 1 <= froz s (hsnap t));
  r_done : forall j t, nth_error (hths s) j = Some t -> hpc_ t = GDone ->
         hst t - 1 <= hwit t < length (hist s) /\ nth (hwit t) (hist s) dflt (hkey t) = hres t;
  r_app : forall j t, nth_error (hths s) j = Some t -> happ t = b2n (applied t);
  r_it : forall j t, nth_error (hths s) j = Some t -> pc_in (hpc_ t) [I1; IDone] = true -> iter_ok s t
}.

(* thread i moves to [t'], nothing the readers' clauses mention changes *)
Lemma hr_frame {s i t' lk' rz' cnt'} :
  HRInv s ->
  (hpc_ t' = G1 -> 1 <= hst t' <= length (hist s) /\ hsnap t' <= hcur s /\ (hsnap t' < hcur s -> hst t' - 1 <= froz s (hsnap t'))) ->
  (hpc_ t' = GDone -> hst t' - 1 <= hwit t' < length (hist s) /\ nth (hwit t') (hist s) dflt (hkey t') = hres t') ->
  happ t' = b2n (applied t') ->
  (pc_in (hpc_ t') [I1; IDone] = true -> iter_ok s t') ->
  HRInv (mkHcs (lens s) (stores s) lk' (hcur s) rz' (spec s) (hist s) (froz s) cnt' (ulog s) (upd_nth i t' (hths s))).
Proof.
  intros [A B C D E F G H] H1 H2 H3 H4.
  constructor; cbn [lens stores hcur spec hist froz hths]; [exact A|exact B|exact C|exact D|..].
  - exact (upd_all _ _ _ _ E H1).
  - exact (upd_all _ _ _ _ F H2).
  - exact (upd_all _ _ _ _ G H3).
  - exact (upd_all _ _ _ _ H H4).
Qed.

Lemma read_index s g st : HCInv s -> HRInv s ->
  1 <= st <= length (hist s) -> g <= hcur s -> (g < hcur s -> st - 1 <= froz s g) ->
  let w := if Nat.eqb g (hcur s) then length (hist s) - 1 else froz s g in
  st - 1 <= w < length (hist s) /\ forall k, nth w (hist s) dflt k = stores s g k.
Proof.
  intros I R H1 H2 H3. cbv zeta. destruct (Nat.eqb_spec g (hcur s)) as [->|Hne].
  - split; [lia|]. intros k. rewrite (iv_spec s I). symmetry. apply (r_spec s R).
  - assert (Hl : g < hcur s) by lia. destruct (r_froz s R g Hl) as [Hf Hst]. specialize (H3 Hl).
    split; [lia|]. intros k. symmetry. apply Hst.
Qed.

Theorem HRInv_step s i o : HCInv s -> HRInv s -> HRInv (hstep hidx KU s i o).
Proof.
  intros I R. unfold hstep, ret_pc. destruct (nth_error (hths s) i) as [t|] eqn:Hi; [|exact R].
  rewrite <- (set_pc_id t) in Hi |- *. pose proof (r_app s R i _ Hi) as Ha. pose proof (r_hist s R) as HH.
  destruct (hpc_ t); calc; cbn in Ha.
  - (* W0 *) apply (hr_frame R); side. exact Ha.
  - (* W1 *) destruct (lk s (hsnap t) (hbi t)); [exact R|]. apply (hr_frame R); side. exact Ha.
  - (* W2 *) destruct (resizing s); apply (hr_frame R); side; exact Ha.
  - (* Wwait *) destruct (resizing s); [exact R|]. apply (hr_frame R); side. exact Ha.
  - (* W3 *) destruct (Nat.eqb (hcur s) (hsnap t)); apply (hr_frame R); side; exact Ha.
  - (* W4: the history grows by the new map *)
    destruct o as [|o]; [|apply (hr_frame R); side; exact Ha].
    pose proof (iv_w4 s I i _ Hi eq_refl) as Hsn. cbn in Hsn.
    constructor; cbn [lens stores lk hcur resizing spec hist froz hths]; rewrite ?app_length; cbn [length].
    + apply (r_last s R).
    + lia.
    + intros k. replace (length (hist s) + 1 - 1) with (length (hist s)) by lia.
      rewrite app_nth2, Nat.sub_diag by lia. reflexivity.
    + intros g Hg. destruct (r_froz s R g Hg) as [Hf Hst]. split; [lia|].
      intros k. rewrite app_nth1 by exact Hf. unfold upd_store.
      destruct (Nat.eqb_spec g (hsnap t)) as [->|]; [lia|apply Hst].
    + refine (upd_all _ _ _ _ _ _); [|discriminate]. intros j u Hj Hpu. destruct (r_rd s R j u Hj Hpu) as (H1 & H2 & H3).
      split; [lia|]. split; assumption.
    + refine (upd_all _ _ _ _ _ _); [|discriminate]. intros j u Hj Hpu. destruct (r_done s R j u Hj Hpu) as (H1 & H2).
      split; [lia|]. rewrite app_nth1 by lia. exact H2.
    + refine (upd_all _ _ _ _ (r_app s R) _). cbn. rewrite Ha. reflexivity.
    + refine (upd_all _ _ _ _ _ _); [|discriminate]. intros j u Hj Hpu.
      destruct (r_it s R j u Hj Hpu) as (H1 & H2 & H3 & H4 & H5). unfold iter_ok. cbn [hcur hist froz]. rewrite app_length.
      split; [lia|]. split; [exact H2|]. split; [exact H3|]. split; [exact H4|].
      intros k Hk. destruct (H5 k Hk) as [Hw Hv]. split; [lia|]. rewrite app_nth1 by lia. exact Hv.
  - (* W5 *) apply (hr_frame R); side. exact Ha.
  - (* Wadd *) apply (hr_frame R); side. exact Ha.
  - (* W6 *) destruct o; apply (hr_frame R); side; exact Ha.
  - (* R0 *) destruct (resizing s); [|destruct o]; apply (hr_frame R); side; exact Ha.
  - (* Rwait *) destruct (resizing s); [exact R|]. destruct (hretry t); apply (hr_frame R); side; exact Ha.
  - (* R1 *) destruct (forallb (hcop t) (seq 0 (len_of s (hsnap t)))); [apply (hr_frame R); side; exact Ha|].
    destruct (Nat.ltb o (len_of s (hsnap t)) && negb (hcop t o) && negb (lk s (hsnap t) o)); [|exact R].
    apply (hr_frame R); side. exact Ha.
  - (* R2: the old table is frozen at the last index of the history *)
    pose proof (r_last s R) as HL.
    constructor; cbn [lens stores lk hcur resizing spec hist froz hths].
    + rewrite app_length. cbn. lia.
    + exact HH.
    + apply (r_spec s R).
    + intros g Hg. unfold upd_store. destruct (Nat.eqb_spec g (length (lens s))) as [|_]; [lia|].
      destruct (Nat.eqb_spec g (hcur s)) as [->|Hne].
      * split; [lia|]. intros k. rewrite (iv_spec s I). apply (r_spec s R).
      * apply (r_froz s R). lia.
    + refine (upd_all _ _ _ _ _ _); [|discriminate]. intros j u Hj Hpu. destruct (r_rd s R j u Hj Hpu) as (H1 & H2 & H3).
      split; [exact H1|]. split; [lia|]. intros _. destruct (Nat.eqb_spec (hsnap u) (hcur s)) as [E|Hne]; [lia|apply H3; lia].
    + refine (upd_all _ _ _ _ (r_done s R) _). discriminate.
    + refine (upd_all _ _ _ _ (r_app s R) _). exact Ha.
    + refine (upd_all _ _ _ _ _ _); [|discriminate]. intros j u Hj Hpu.
      destruct (r_it s R j u Hj Hpu) as (H1 & H2 & H3 & H4 & H5). unfold iter_ok, bidx_of, len_of in *. cbn [lens hcur hist froz].
      rewrite app_nth1 by lia.
      split; [exact H1|]. split; [lia|]. split; [|split; assumption].
      intros _. destruct (Nat.eqb_spec (hsnap u) (hcur s)) as [E|Hne]; [lia|apply H3; lia].
  - (* R3 *) destruct (hretry t); apply (hr_frame R); side; exact Ha.
  - (* HDone *) exact R.
  - (* G0 *) apply (hr_frame R); side; [|exact Ha]. lia.
  - (* G1 *) apply (hr_frame R); side; [|exact Ha].
    intros _. destruct (r_rd s R i _ Hi eq_refl) as (H1 & H2 & H3).
    destruct (read_index s _ _ I R H1 H2 H3) as [Hw Hv]. split; [exact Hw|apply Hv].
  - (* GDone *) exact R.
  - (* I0 *) apply (hr_frame R); side; [exact Ha|].
    intros _. unfold iter_ok. cbn. split; [lia|]. split; [lia|]. split; [lia|]. split; [discriminate|]. intros k Hk. lia.
  - (* I1 *)
    destruct (r_it s R i _ Hi eq_refl) as (H1 & H2 & H3 & H4 & H5). cbn in H1, H2, H3, H4, H5.
    destruct (Nat.ltb_spec (hbi t) (len_of s (hsnap t))) as [Hlb|Hge]; [destruct (lk s (hsnap t) (hbi t)); [exact R|]|];
      (apply (hr_frame R); side; [exact Ha|]); intros _; unfold iter_ok; cbn.
    + split; [exact H1|]. split; [exact H2|]. split; [exact H3|]. split; [discriminate|].
      intros k Hk. destruct (Nat.eqb_spec (bidx_of hidx s (hsnap t) k) (hbi t)) as [Eb|Nb]; [|apply H5; lia].
      destruct (read_index s _ _ I R H1 H2 H3) as [Hw Hv]. split; [exact Hw|apply Hv].
    + split; [exact H1|]. split; [exact H2|]. split; [exact H3|]. split; [intros _; exact Hge|exact H5].
  - (* IDone *) exact R.
Qed.

Lemma HRInv_init n0 ops : HRInv (hinit n0 ops).
Proof.
  constructor.
  - reflexivity.
  - cbn. lia.
  - intros k. reflexivity.
  - intros g Hg. cbn in Hg. lia.
  - refine (init_all _ _ _ _). intros [| |]; discriminate.
  - refine (init_all _ _ _ _). intros [| |]; discriminate.
  - refine (init_all _ _ _ _). intros [| |]; reflexivity.
  - refine (init_all _ _ _ _). intros [| |]; discriminate.
Qed.

Lemma both_run sched : forall s, HCInv s -> HRInv s -> HCInv (hrun hidx KU s sched) /\ HRInv (hrun hidx KU s sched).
Proof.
  induction sched as [|e sched IH]; intros s I R; [split; assumption|]. cbn [hrun fold_left].
  apply IH; [apply HCInv_step; exact I|apply HRInv_step; assumption].
Qed.

Lemma conc_inv n0 ops sched : 1 <= n0 ->
  HCInv (hrun hidx KU (hinit n0 ops) sched) /\ HRInv (hrun hidx KU (hinit n0 ops) sched).
Proof. intros Hn. apply both_run; [apply HCInv_init; exact Hn|apply HRInv_init]. Qed.

(* [spec] is only ever changed by the W4 step, to [upd spec k (f (spec k))] (by definition of hstep), and
   [hist] lists its successive values.  The theorem: the published table IS that map, at every moment. *)
Theorem conc_table_is_spec n0 ops sched : 1 <= n0 ->
  let s := hrun hidx KU (hinit n0 ops) sched in forall k, stores s (hcur s) k = spec s k.
Proof. intros Hn s. exact (iv_spec s (proj1 (conc_inv n0 ops sched Hn))). Qed.

Theorem conc_bucket_mutex n0 ops sched g b : 1 <= n0 ->
  hcnt (holder g b) (hths (hrun hidx KU (hinit n0 ops) sched)) <= 1.
Proof. intros Hn. rewrite (iv_lock _ (proj1 (conc_inv n0 ops sched Hn))). apply b2n_le1. Qed.
Theorem conc_resize_mutex n0 ops sched : 1 <= n0 -> hcnt resz (hths (hrun hidx KU (hinit n0 ops) sched)) <= 1.
Proof. intros Hn. rewrite (iv_resz _ (proj1 (conc_inv n0 ops sched Hn))). apply b2n_le1. Qed.

(* a writer about to apply its function holds the lock of the key's bucket in the CURRENT table, and the
   binding it is about to read there is the abstract map's: the function sees the value every earlier
   update left, and its result is installed in the same step (atomic per call) *)
Theorem conc_update_sees_current n0 ops sched j t : 1 <= n0 ->
  let s := hrun hidx KU (hinit n0 ops) sched in
  nth_error (hths s) j = Some t -> hpc_ t = W4 ->
  hsnap t = hcur s /\ stores s (hsnap t) (hkey t) = spec s (hkey t) /\ lk s (hsnap t) (hbi t) = true.
Proof.
  intros Hn s Hj Hp. destruct (conc_inv n0 ops sched Hn) as [I _]. fold s in I.
  pose proof (iv_w4 s I j t Hj Hp) as E. split; [exact E|]. split; [rewrite E; apply (iv_spec s I)|].
  apply (holder_locked s j t I Hj). rewrite Hp. reflexivity.
Qed.

(* every writer has applied its function exactly once when it is past its update step, and not at all
   before: never twice, whatever retries the resizes forced *)
Theorem conc_applied_exactly_once n0 ops sched j t : 1 <= n0 ->
  nth_error (hths (hrun hidx KU (hinit n0 ops) sched)) j = Some t -> happ t = b2n (applied t).
Proof. intros Hn. apply (r_app _ (proj2 (conc_inv n0 ops sched Hn))). Qed.

(* a finished lock-free read returned the binding the key had in the abstract map at some moment
   between the read's start (its table load) and its end: index [hwit] of the history, not older than
   the map that was current when the read began *)
Theorem conc_read_regular n0 ops sched j t : 1 <= n0 ->
  let s := hrun hidx KU (hinit n0 ops) sched in
  nth_error (hths s) j = Some t -> hpc_ t = GDone ->
  hst t - 1 <= hwit t < length (hist s) /\ nth (hwit t) (hist s) dflt (hkey t) = hres t.
Proof. intros Hn s. apply (r_done _ (proj2 (conc_inv n0 ops sched Hn))). Qed.

(* in particular: with no update in flight during the read, it returns the current binding *)
Corollary conc_read_quiescent n0 ops sched j t : 1 <= n0 ->
  let s := hrun hidx KU (hinit n0 ops) sched in
  nth_error (hths s) j = Some t -> hpc_ t = GDone -> hst t = length (hist s) -> hres t = spec s (hkey t).
Proof.
  intros Hn s Hj Hp Hst. destruct (conc_read_regular n0 ops sched j t Hn Hj Hp) as [Hw Hv]. fold s in Hw, Hv.
  rewrite (r_spec s (proj2 (conc_inv n0 ops sched Hn))), <- Hv. f_equal. lia.
Qed.

(* a finished iteration: every key was yielded (or not) as it was bound (or not) in the abstract map at
   some moment between the iteration's table load and its end *)
Theorem conc_iter_sound n0 ops sched j t : 1 <= n0 ->
  let s := hrun hidx KU (hinit n0 ops) sched in
  nth_error (hths s) j = Some t -> hpc_ t = IDone ->
  forall k, hst t - 1 <= hwitf t k < length (hist s) /\ nth (hwitf t k) (hist s) dflt k = hyield t k.
Proof.
  intros Hn s Hj Hp k. destruct (conc_inv n0 ops sched Hn) as [I R]. fold s in I, R.
  assert (Hq : pc_in (hpc_ t) [I1; IDone] = true) by (rewrite Hp; reflexivity).
  destruct (r_it s R j t Hj Hq) as (_ & _ & _ & H4 & H5). apply H5.
  pose proof (bidx_lt s (hsnap t) k (iv_len s I)). specialize (H4 Hp). lia.
Qed.

(* ... so a key present during the whole iteration is yielded, with a binding it had meanwhile *)
Corollary conc_iter_complete n0 ops sched j t k : 1 <= n0 ->
  let s := hrun hidx KU (hinit n0 ops) sched in
  nth_error (hths s) j = Some t -> hpc_ t = IDone ->
  (forall w, hst t - 1 <= w < length (hist s) -> nth w (hist s) dflt k <> None) -> hyield t k <> None.
Proof.
  intros Hn s Hj Hp Hall. destruct (conc_iter_sound n0 ops sched j t Hn Hj Hp k) as [Hw Hv]. fold s in Hw, Hv.
  rewrite <- Hv. apply Hall. exact Hw.
Qed.

(* ... and a key absent during the whole iteration (removed before it began, not re-inserted) is not *)
Corollary conc_iter_no_ghost n0 ops sched j t k : 1 <= n0 ->
  let s := hrun hidx KU (hinit n0 ops) sched in
  nth_error (hths s) j = Some t -> hpc_ t = IDone ->
  (forall w, hst t - 1 <= w < length (hist s) -> nth w (hist s) dflt k = None) -> hyield t k = None.
Proof.
  intros Hn s Hj Hp Hall. destruct (conc_iter_sound n0 ops sched j t Hn Hj Hp k) as [Hw Hv]. fold s in Hw, Hv.
  rewrite <- Hv. apply Hall. exact Hw.
Qed.

End Proofs.
