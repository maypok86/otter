(* SketchProofs.v — the sketch model (C18).
   Counter j of a word w is (w / 16^j) mod 16: the increment is arithmetic on that form (any counter is
   brought to position 0 by a division), the aging step and the saturation test are bitwise on Z.land.
   A table is read through [cnt t (slot, index)]; [frequency] is the minimum of four such counters. *)
From Otter Require Import Base Sketch.
From Coq Require Import ZifyBool.
Local Open Scope Z_scope.

Lemma land_ones_range h n : 0 <= n -> 0 <= Z.land h (Z.ones n) <= Z.ones n.
Proof.
  intros Hn. rewrite Z.land_ones, Z.ones_equiv by assumption.
  pose proof (Z.mod_pos_bound h (2 ^ n) ltac:(apply Z.pow_pos_nonneg; lia)). lia.
Qed.

Lemma land1_range h : 0 <= Z.land h 1 <= 1.
Proof. apply (land_ones_range h 1). lia. Qed.

Lemma land15_range h : 0 <= Z.land h 15 <= 15.
Proof. apply (land_ones_range h 4). lia. Qed.

Lemma offset_pow j : 0 <= j -> 2 ^ Z.shiftl j 2 = 16 ^ j.
Proof. intros Hj. rewrite Z.shiftl_mul_pow2, Z.mul_comm, Z.pow_mul_r by lia. reflexivity. Qed.

Lemma count_at_range w j : 0 <= count_at w j <= 15.
Proof. apply land15_range. Qed.

Lemma count_at_spec w j : 0 <= j -> count_at w j = (w / 16 ^ j) mod 16.
Proof.
  intros Hj. unfold count_at. rewrite Z.shiftr_div_pow2, offset_pow by (try apply Z.shiftl_nonneg; lia).
  change 15 with (Z.ones 4). apply Z.land_ones. lia.
Qed.

Lemma count_at_shift w j i : 0 <= j -> 0 <= i -> count_at w (j + i) = count_at (w / 16 ^ j) i.
Proof.
  intros Hj Hi. rewrite !count_at_spec, Z.pow_add_r, Z.div_div by (try apply Z.pow_pos_nonneg; lia).
  reflexivity.
Qed.

Lemma count_at_succ v i : 0 <= i -> v mod 16 <> 15 ->
  count_at (v + 1) i = count_at v i + (if i =? 0 then 1 else 0).
Proof.
  intros Hi Hv. rewrite !count_at_spec by assumption. destruct (Z.eqb_spec i 0) as [->|Hd].
  - rewrite !Z.div_1_r. Z.div_mod_to_equations; lia.
  - replace i with (Z.succ (i - 1)) by lia.
    rewrite Z.pow_succ_r, <- !Z.div_div by (try apply Z.pow_pos_nonneg; lia).
    replace ((v + 1) / 16) with (v / 16) by (Z.div_mod_to_equations; lia). lia.
Qed.

Lemma count_at_incr w j j' : 0 <= j -> 0 <= j' -> count_at w j <> 15 ->
  count_at (w + 16 ^ j) j' = count_at w j' + (if j' =? j then 1 else 0).
Proof.
  intros Hj Hj' Hne. assert (H16 : 0 < 16 ^ j) by (apply Z.pow_pos_nonneg; lia).
  destruct (Z_lt_ge_dec j' j) as [Hlt|Hge].
  - (* below j: 16^j is a multiple of 16 * 16^j' *)
    replace (j' =? j) with false by lia. rewrite !count_at_spec by assumption.
    replace j with (j - j' - 1 + Z.succ j') at 1 by lia.
    rewrite Z.pow_add_r, Z.pow_succ_r, Z.mul_assoc by lia.
    rewrite Z.div_add, Z.mod_add by (try apply Z.pow_nonzero; lia). lia.
  - (* from j on: divide by 16^j *)
    rewrite count_at_spec in Hne by assumption.
    replace (j' =? j) with (j' - j =? 0) by lia.
    replace j' with (j + (j' - j)) at 1 2 by lia. rewrite !count_at_shift by lia.
    rewrite <- (Z.mul_1_l (16 ^ j)) at 1. rewrite Z.div_add by lia.
    apply count_at_succ; [lia | assumption].
Qed.

Lemma land_shifted_mask w o : 0 <= o ->
  Z.land w (Z.shiftl 15 o) = Z.shiftl (Z.land (Z.shiftr w o) 15) o.
Proof.
  intros Ho. apply Z.bits_inj'. intros n Hn.
  rewrite Z.land_spec.
  destruct (Z_lt_ge_dec n o) as [Hlt|Hge].
  - rewrite !Z.shiftl_spec_low by lia. apply andb_false_r.
  - rewrite !Z.shiftl_spec by lia. rewrite Z.land_spec. rewrite Z.shiftr_spec by lia.
    replace (n - o + o) with n by lia. reflexivity.
Qed.

(* the mask test of incrementAt is a test for "counter = 15" *)
Lemma mask_test w j : 0 <= j ->
  (Z.land w (Z.shiftl 15 (Z.shiftl j 2)) =? Z.shiftl 15 (Z.shiftl j 2)) = (count_at w j =? 15).
Proof.
  intros Hj. unfold count_at. apply (Z.shiftl_nonneg j 2) in Hj. revert Hj.
  generalize (Z.shiftl j 2). intros o Ho.
  rewrite land_shifted_mask, !(Z.shiftl_mul_pow2 _ o) by assumption.
  pose proof (Z.pow_pos_nonneg 2 o ltac:(lia) Ho).
  destruct (Z.eqb_spec (Z.land (Z.shiftr w o) 15) 15) as [->|Hne]; [apply Z.eqb_refl | apply Z.eqb_neq; nia].
Qed.

Lemma count_at_land a b j : count_at (Z.land a b) j = Z.land (count_at a j) (count_at b j).
Proof.
  unfold count_at. rewrite Z.shiftr_land.
  rewrite <- (Z.land_diag 15) at 1.
  rewrite !Z.land_assoc. f_equal. rewrite <- !Z.land_assoc. f_equal. apply Z.land_comm.
Qed.

Lemma resetMask_nibbles j : 0 <= j <= 15 -> count_at resetMask j = 7.
Proof.
  intros Hj. rewrite <- (Z2Nat.id j) by lia.
  assert (H : (Z.to_nat j < 16)%nat) by lia. revert H. generalize (Z.to_nat j) as n. intros n H.
  do 16 (destruct n as [|n]; [reflexivity|]). lia.
Qed.

Lemma halve_counter w j : 0 <= j <= 15 ->
  count_at (Z.land (Z.shiftr w 1) resetMask) j = count_at w j / 2.
Proof.
  intros Hj. rewrite count_at_land, resetMask_nibbles by assumption.
  unfold count_at. rewrite Z.shiftl_mul_pow2 by lia. rewrite Z.shiftr_shiftr, Z.add_comm, <- Z.shiftr_shiftr by lia.
  rewrite <- Z.land_assoc. change (Z.land 15 7) with (Z.ones 3). change 15 with (Z.ones 4).
  rewrite !Z.land_ones, Z.shiftr_div_pow2 by lia.
  change (2 ^ 1) with 2; change (2 ^ 3) with 8; change (2 ^ 4) with 16.
  Z.div_mod_to_equations; lia.
Qed.

Definition cnt (t : list Z) (p : Z * Z) : Z := count_at (tget t (fst p)) (snd p).

Definition valid_pos (t : list Z) (p : Z * Z) : Prop :=
  0 <= fst p < Z.of_nat (length t) /\ 0 <= snd p.

Lemma increment_at_spec t i j : valid_pos t (i, j) ->
  let '(t', a) := increment_at t i j in
  length t' = length t /\ a = negb (cnt t (i, j) =? 15) /\
  forall p, valid_pos t p ->
    cnt t' p = if (fst p =? i) && (snd p =? j) then Z.min 15 (cnt t p + 1) else cnt t p.
Proof.
  intros [Hi Hj]; cbn [fst snd] in Hi, Hj. unfold increment_at, cnt; cbn [fst snd].
  rewrite mask_test by assumption.
  destruct (Z.eqb_spec (count_at (tget t i) j) 15) as [E|E]; cbn [negb].
  - split; [reflexivity|]. split; [reflexivity|]. intros [i' j'] _; cbn [fst snd].
    destruct (Z.eqb_spec i' i) as [->|]; [|reflexivity].
    destruct (Z.eqb_spec j' j) as [->|]; [|reflexivity]. rewrite E. reflexivity.
  - rewrite upd_length, Z.shiftl_mul_pow2, offset_pow, Z.mul_1_l by (try apply Z.shiftl_nonneg; lia).
    split; [reflexivity|]. split; [reflexivity|].
    intros [i' j'] [[Hi' _] Hj']; cbn [fst snd] in *. unfold tget at 1.
    destruct (Z.eqb_spec i' i) as [->|Hd]; cbn [andb].
    + rewrite nth_upd_same by lia. fold (tget t i). rewrite count_at_incr by assumption.
      pose proof (count_at_range (tget t i) j). destruct (Z.eqb_spec j' j) as [->|]; lia.
    + rewrite nth_upd_other by lia. reflexivity.
Qed.

(* the four positions of a hash, as frequency derives them *)
Definition positions (bm bh : Z) : list (Z * Z) := map (pos_loop bm bh) [0; 1; 2; 3].

Lemma same_counters bm bh : pos_unrolled bm bh = positions bm bh.
Proof.
  unfold pos_unrolled, positions, pos_loop. cbn [map]. f_equal. f_equal. symmetry. apply Z.add_0_r.
Qed.

Definition wf (s : sketch) : Prop :=
  inited s = true ->
  exists k, 0 <= k /\ Z.of_nat (length (tbl s)) = 8 * 2 ^ k /\ bmask s = Z.ones k.

Lemma pos_loop_valid t bm bh k i :
  0 <= k -> Z.of_nat (length t) = 8 * 2 ^ k -> bm = Z.ones k -> In i [0; 1; 2; 3] ->
  valid_pos t (pos_loop bm bh i).
Proof.
  intros Hk Hlen -> Hin. unfold valid_pos, pos_loop; cbn [fst snd].
  rewrite Z.land_ones, !Z.shiftl_mul_pow2 by lia.
  pose proof (Z.mod_pos_bound bh (2 ^ k) ltac:(apply Z.pow_pos_nonneg; lia)).
  pose proof (land1_range (Z.shiftr (rehash bh) (i * 2 ^ 3))).
  split; [simpl in Hin; lia | apply land15_range].
Qed.

Lemma positions_distinct bm bh i i' : i <> i' -> pos_loop bm bh i <> pos_loop bm bh i'.
Proof.
  intros Hne E. apply (f_equal fst) in E. unfold pos_loop in E; cbn [fst] in E.
  rewrite !(Z.shiftl_mul_pow2 _ 1) in E by lia.
  pose proof (land1_range (Z.shiftr (rehash bh) (Z.shiftl i 3))).
  pose proof (land1_range (Z.shiftr (rehash bh) (Z.shiftl i' 3))). lia.
Qed.

Lemma positions_valid s r p :
  wf s -> inited s = true -> In p (positions (bmask s) (spread r)) -> valid_pos (tbl s) p.
Proof.
  intros Hwf Hi Hp. destruct (Hwf Hi) as (k & Hk & Hlen & Hbm).
  apply in_map_iff in Hp. destruct Hp as (i & <- & Hin). exact (pos_loop_valid _ _ _ k i Hk Hlen Hbm Hin).
Qed.

(* incrementAt folded over a list of positions, as increment does *)
Definition incr_fold (t : list Z) (ps : list (Z * Z)) : list Z * bool :=
  fold_left (fun '(t, added) '(slot, index) =>
               let '(t', a) := increment_at t slot index in (t', a || added)) ps (t, false).

(* No counter decreases and every listed one gains 1 (up to the cap): unlike an exact description,
   this needs no distinctness of the positions. *)
Lemma incr_fold_gen ps : forall t acc,
  (forall p, In p ps -> valid_pos t p) ->
  let t' := fst (fold_left (fun '(t, added) '(slot, index) =>
               let '(t', a) := increment_at t slot index in (t', a || added)) ps (t, acc)) in
  length t' = length t /\
  (forall p, valid_pos t p -> cnt t p <= cnt t' p) /\
  (forall p, In p ps -> Z.min 15 (cnt t p + 1) <= cnt t' p).
Proof.
  induction ps as [|[i j] ps IH]; intros t acc Hv; cbn [fold_left].
  - cbn. repeat split; [lia | intros ? []].
  - pose proof (increment_at_spec t i j (Hv _ (or_introl eq_refl))) as Sp.
    destruct (increment_at t i j) as [t1 a1]. destruct Sp as (L1 & _ & C1).
    assert (V1 : forall p, valid_pos t p -> valid_pos t1 p) by (unfold valid_pos; rewrite L1; auto).
    assert (M1 : forall p, valid_pos t p -> cnt t p <= cnt t1 p).
    { intros p Hp. rewrite C1 by assumption.
      pose proof (count_at_range (tget t (fst p)) (snd p)). unfold cnt. destruct (_ && _); lia. }
    destruct (IH t1 (a1 || acc)%bool) as (L & M & C); [auto using in_cons|].
    split; [congruence|]. split.
    + intros p Hp. specialize (M1 p Hp). specialize (M p (V1 p Hp)). lia.
    + intros p [<-|Hp].
      * pose proof (Hv _ (or_introl eq_refl)) as Hq. specialize (M _ (V1 _ Hq)).
        rewrite C1 in M by assumption. cbn [fst snd] in M. rewrite !Z.eqb_refl in M. exact M.
      * specialize (M1 p (Hv p (or_intror Hp))). specialize (C p Hp). lia.
Qed.

Definition min_cnt (t : list Z) (ps : list (Z * Z)) (init : Z) : Z :=
  fold_left (fun f p => Z.min f (cnt t p)) ps init.

Lemma min_cnt_cons t q ps init : min_cnt t (q :: ps) init = min_cnt t ps (Z.min init (cnt t q)).
Proof. reflexivity. Qed.

Lemma min_cnt_glb t ps : forall init b,
  b <= min_cnt t ps init <-> b <= init /\ forall p, In p ps -> b <= cnt t p.
Proof.
  induction ps as [|q ps IH]; intros init b.
  - cbn. intuition.
  - rewrite min_cnt_cons, IH. cbn [In]. split.
    + intros [H1 H2]. split; [lia|]. intros p [<-|Hp]; [lia | auto].
    + intros [H1 H2]. pose proof (H2 q (or_introl eq_refl)). split; [lia | auto].
Qed.

Lemma min_cnt_le_init t ps init : min_cnt t ps init <= init.
Proof. apply (min_cnt_glb t ps init). apply Z.le_refl. Qed.

Lemma min_cnt_le t ps init p : In p ps -> min_cnt t ps init <= cnt t p.
Proof. apply (min_cnt_glb t ps init). apply Z.le_refl. Qed.

Lemma min_cnt_attained t ps : forall init,
  min_cnt t ps init = init \/ exists p, In p ps /\ min_cnt t ps init = cnt t p.
Proof.
  induction ps as [|q ps IH]; intros init; [left; reflexivity|].
  rewrite min_cnt_cons.
  destruct (IH (Z.min init (cnt t q))) as [E|(p & Hp & E)].
  - rewrite E.
    destruct (Z.min_spec init (cnt t q)) as [[_ ->]|[_ ->]]; [left; reflexivity|].
    right; exists q; split; [left|]; reflexivity.
  - right. exists p. split; [right; assumption|assumption].
Qed.

Lemma min_cnt_halved t t' ps : forall init,
  (forall p, In p ps -> cnt t' p = cnt t p / 2) ->
  min_cnt t' ps (init / 2) = min_cnt t ps init / 2.
Proof.
  induction ps as [|q ps IH]; intros init H; [reflexivity|].
  rewrite !min_cnt_cons, (H q (or_introl eq_refl)), <- IH by (intros; apply H; right; assumption).
  f_equal. Z.div_mod_to_equations; lia.
Qed.

(* The first counter caps the minimum at 15, so any initial value from 15 on will do for MaxUint64. *)
Lemma frequency_as_min s r init :
  inited s = true -> 15 <= init ->
  frequency s r = min_cnt (tbl s) (positions (bmask s) (spread r)) init.
Proof.
  intros Hi Hinit. unfold frequency. rewrite Hi. cbn [negb].
  unfold min_cnt, positions, cnt. cbn [map fold_left].
  do 4 destruct (pos_loop _ _ _); cbn [fst snd].
  assert (E : forall c, c <= 15 -> Z.min MaxUint64 c = Z.min init c) by (unfold MaxUint64; lia).
  rewrite E by apply count_at_range. reflexivity.
Qed.

(* the increment without the aging step *)
Definition incr_core (s : sketch) (r : Z) : sketch * bool :=
  let '(t, added) := incr_fold (tbl s) (pos_unrolled (bmask s) (spread r)) in
  (mkSketch t (sample s) (bmask s) (if added then wrapu (ssize s + 1) else ssize s) (inited s), added).

Definition reset_due (s : sketch) (r : Z) : bool :=
  inited s && (let '(s', added) := incr_core s r in added && (ssize s' =? sample s')).

Lemma increment_unfold s r :
  increment s r =
  if negb (inited s) then s else
  let '(s', added) := incr_core s r in
  if added && (ssize s' =? sample s') then reset s' else s'.
Proof.
  unfold increment, incr_core, incr_fold.
  destruct (negb (inited s)); [reflexivity|].
  destruct (fold_left _ _ _) as [t added]. destruct added; cbn; [|destruct s; reflexivity].
  destruct (wrapu (ssize s + 1) =? sample s); reflexivity.
Qed.

Lemma incr_core_props s r :
  wf s -> inited s = true ->
  let s' := fst (incr_core s r) in
  wf s' /\ inited s' = true /\ bmask s' = bmask s /\
  (forall p, valid_pos (tbl s) p -> cnt (tbl s) p <= cnt (tbl s') p) /\
  (forall p, In p (positions (bmask s) (spread r)) -> Z.min 15 (cnt (tbl s) p + 1) <= cnt (tbl s') p).
Proof.
  intros Hwf Hi. unfold incr_core, incr_fold. rewrite same_counters.
  pose proof (incr_fold_gen _ (tbl s) false (fun p => positions_valid s r p Hwf Hi)) as G.
  destruct (fold_left _ _ _) as [t' a]. destruct G as (L & M & C).
  cbn in *. repeat split; auto.
  intros _. destruct (Hwf Hi) as (k & Hk & Hlen & Hbm). exists k. cbn. rewrite L. auto.
Qed.

(* a sampling period: a run of increments none of which triggers the aging step *)
Fixpoint run_period (s : sketch) (rs : list Z) : option sketch :=
  match rs with
  | [] => Some s
  | r :: rs' => if reset_due s r then None else run_period (increment s r) rs'
  end.

Lemma increment_no_reset s r :
  inited s = true -> reset_due s r = false -> increment s r = fst (incr_core s r).
Proof.
  intros Hi Hr. rewrite increment_unfold. unfold reset_due in Hr. rewrite Hi in *. cbn in Hr |- *.
  destruct (incr_core s r) as [s' a]. rewrite Hr. reflexivity.
Qed.

Definition occ (r : Z) (rs : list Z) : Z := Z.of_nat (count_occ Z.eq_dec rs r).

Lemma occ_nonneg r rs : 0 <= occ r rs.
Proof. apply Nat2Z.is_nonneg. Qed.

Lemma occ_cons r x rs : occ r (x :: rs) = occ r rs + (if Z.eq_dec x r then 1 else 0).
Proof. unfold occ. cbn [count_occ]. destruct (Z.eq_dec x r); lia. Qed.

Lemma period_lower_bound rs : forall s s' r,
  wf s -> inited s = true -> run_period s rs = Some s' ->
  wf s' /\ inited s' = true /\ bmask s' = bmask s /\
  (forall p, In p (positions (bmask s) (spread r)) ->
     Z.min 15 (cnt (tbl s) p + occ r rs) <= cnt (tbl s') p).
Proof.
  induction rs as [|x rs IH]; intros s s' r Hwf Hi Hrun; cbn in Hrun.
  - injection Hrun as <-. repeat split; auto. intros p _. unfold occ; cbn. lia.
  - destruct (reset_due s x) eqn:Hr; [discriminate|].
    rewrite (increment_no_reset s x Hi Hr) in Hrun. clear Hr.
    destruct (incr_core_props s x Hwf Hi) as (W1 & I1 & B1 & M1 & C1).
    destruct (IH _ s' r W1 I1 Hrun) as (W' & I' & B' & Hb).
    split; [assumption|]. split; [assumption|]. split; [congruence|].
    intros p Hp. rewrite B1 in Hb. specialize (Hb p Hp).
    specialize (M1 p (positions_valid s r p Hwf Hi Hp)). rewrite occ_cons. pose proof (occ_nonneg r rs).
    destruct (Z.eq_dec x r) as [->|Hne]; [specialize (C1 p Hp)|]; lia.
Qed.

Lemma frequency_uninitialised s r : inited s = false -> frequency s r = 0.
Proof. intros Hi. unfold frequency. rewrite Hi. reflexivity. Qed.

Lemma increment_uninitialised s r : inited s = false -> increment s r = s.
Proof. intros Hi. unfold increment. rewrite Hi. reflexivity. Qed.

Lemma frequency_le_15 s r : 0 <= frequency s r <= 15.
Proof.
  destruct (inited s) eqn:Hi; [|rewrite frequency_uninitialised by assumption; lia].
  rewrite (frequency_as_min s r 15) by (assumption || lia).
  split; [|apply min_cnt_le_init].
  apply min_cnt_glb. split; [lia|]. intros. apply count_at_range.
Qed.

Lemma no_undercount s s' rs r :
  wf s -> inited s = true -> run_period s rs = Some s' ->
  Z.min 15 (frequency s r + occ r rs) <= frequency s' r.
Proof.
  intros Hwf Hi Hrun.
  destruct (period_lower_bound rs s s' r Hwf Hi Hrun) as (_ & I' & B' & Hb).
  rewrite (frequency_as_min s' r 15), (frequency_as_min s r 15), B' by (assumption || lia).
  apply min_cnt_glb. split; [lia|]. intros p Hp. specialize (Hb p Hp).
  pose proof (min_cnt_le (tbl s) _ 15 p Hp). lia.
Qed.

Lemma reset_halves s r : wf s -> frequency (reset s) r = frequency s r / 2.
Proof.
  intros Hwf. destruct (inited s) eqn:Hi; [|rewrite !frequency_uninitialised by assumption; reflexivity].
  (* initial values 15 = 31 / 2 and 31 *)
  rewrite (frequency_as_min (reset s) r (31 / 2)), (frequency_as_min s r 31) by (assumption || cbn; lia).
  apply min_cnt_halved. intros p Hp.
  apply in_map_iff in Hp. destruct Hp as (i & <- & _).
  unfold cnt, tget; cbn [tbl reset].
  change 0 with ((fun w => Z.land (Z.shiftr w 1) resetMask) 0) at 1. rewrite map_nth.
  apply halve_counter. apply land15_range.
Qed.

Lemma reset_size s :
  ssize (reset s) =
  Z.shiftr (wrapu (ssize s - Z.shiftr (sumZ (map (fun w => popcount64 (Z.land w oneMask)) (tbl s))) 2)) 1.
Proof. reflexivity. Qed.

Lemma reset_wf s : wf s -> wf (reset s).
Proof.
  intros Hwf Hi. destruct (Hwf Hi) as (k & Hk & Hlen & Hbm).
  exists k. cbn. rewrite map_length. auto.
Qed.

Lemma increment_wf s r : wf s -> wf (increment s r).
Proof.
  intros Hwf. rewrite increment_unfold.
  destruct (inited s) eqn:Hi; cbn [negb]; [|assumption].
  destruct (incr_core_props s r Hwf Hi) as (W & _).
  destruct (incr_core s r) as [s' a].
  destruct (a && (ssize s' =? sample s')); [apply reset_wf|]; assumption.
Qed.

Definition smear1 (z k : Z) : Z := Z.lor z (Z.shiftr z k).

(* If bits n-R .. n of z are set and none above n, a smear by k <= R+1 sets bits n-(R+k) .. n. *)
Lemma smear_step z n R k R' :
  R' = R + k -> 0 <= k <= R + 1 -> 0 <= R ->
  (forall i, 0 <= i -> n - R <= i <= n -> Z.testbit z i = true) ->
  (forall i, n < i -> Z.testbit z i = false) ->
  (forall i, 0 <= i -> n - R' <= i <= n -> Z.testbit (smear1 z k) i = true) /\
  (forall i, n < i -> Z.testbit (smear1 z k) i = false).
Proof.
  intros -> Hk HR Hset Hclr. unfold smear1. split; intros i H1; [intros H2|].
  - rewrite Z.lor_spec. rewrite Z.shiftr_spec by assumption.
    destruct (Z_lt_ge_dec i (n - R)) as [Hlt|Hge].
    + rewrite (Hset (i + k)) by lia. apply orb_true_r.
    + rewrite (Hset i) by lia. reflexivity.
  - rewrite Z.lor_spec. destruct (Z_lt_ge_dec i 0) as [Hneg|Hpos].
    + rewrite !Z.testbit_neg_r by lia. reflexivity.
    + rewrite Z.shiftr_spec by lia. rewrite !Hclr by lia. reflexivity.
Qed.

Fixpoint doubling (m : nat) (k : Z) : list Z :=
  match m with O => [] | S m => k :: doubling m (2 * k) end.

Lemma smears_step n m : forall k z, 0 < k ->
  (forall i, 0 <= i -> n - (k - 1) <= i <= n -> Z.testbit z i = true) ->
  (forall i, n < i -> Z.testbit z i = false) ->
  let z' := fold_left smear1 (doubling m k) z in
  (forall i, 0 <= i -> n - (2 ^ Z.of_nat m * k - 1) <= i <= n -> Z.testbit z' i = true) /\
  (forall i, n < i -> Z.testbit z' i = false).
Proof.
  induction m as [|m IH]; intros k z Hk Hset Hclr; cbn [doubling fold_left].
  - rewrite Z.mul_1_l. split; assumption.
  - destruct (smear_step z n (k - 1) k (2 * k - 1)) as [A B]; try assumption; try lia.
    replace (2 ^ Z.of_nat (S m) * k) with (2 ^ Z.of_nat m * (2 * k)) by (rewrite Nat2Z.inj_succ, Z.pow_succ_r; lia).
    apply IH; [lia | assumption..].
Qed.

(* After smears by 1, 2, ..., 2^(m-1) every bit below the leading one of x - 1 is set, so adding 1 gives
   the least power of two >= x; it fits in 2^m bits. *)
Lemma smears_roundup m x : 1 < x <= 2 ^ (2 ^ Z.of_nat m - 1) ->
  (fold_left smear1 (doubling m 1) (x - 1) + 1) mod 2 ^ 2 ^ Z.of_nat m = 2 ^ Z.log2_up x.
Proof.
  intros Hx. set (N := 2 ^ Z.of_nat m) in *. assert (HN : 0 < N) by (apply Z.pow_pos_nonneg; lia).
  assert (HL : Z.log2_up x <= N - 1) by (apply Z.log2_up_le_pow2; lia).
  rewrite Z.log2_up_eqn, <- Z.sub_1_r in * by lia.
  assert (Hy : 0 < x - 1) by lia. revert Hy HL. generalize (x - 1). clear x Hx. intros y Hy HL.
  set (n := Z.log2 y) in *. assert (Hn : 0 <= n) by apply Z.log2_nonneg.
  destruct (smears_step n m 1 y) as [A B]; [lia | ..].
  - intros i _ Hi. replace i with n by lia. apply Z.bit_log2. lia.
  - intros i Hi. apply Z.bits_above_log2; lia.
  - replace (fold_left smear1 (doubling m 1) y) with (Z.ones (Z.succ n)).
    + rewrite Z.ones_equiv, Z.add_1_r, Z.succ_pred. apply Z.mod_small.
      split; [apply Z.pow_nonneg; lia | apply Z.pow_lt_mono_r; lia].
    + apply Z.bits_inj'. intros i Hi. fold N in A.
      destruct (Z_lt_ge_dec n i).
      * rewrite B, Z.ones_spec_high by lia. reflexivity.
      * rewrite A, Z.ones_spec_low by lia. reflexivity.
Qed.

(* [change] with the fold is slow to check (the let-chain is compared through the unfolded Z.lor);
   unfolding both sides to the same term is immediate. *)
Lemma roundup64_spec x : 0 < x <= two63 -> roundup64 x = 2 ^ Z.log2_up x.
Proof.
  intros Hx. destruct (Z.eq_dec x 1) as [->|Hne]; [reflexivity|].
  rewrite <- (smears_roundup 6 x) by (unfold two63 in Hx; cbn; lia).
  unfold roundup64. replace (x =? 0) with false by lia.
  cbv zeta. cbv [doubling fold_left smear1 Z.mul Pos.mul]. reflexivity.
Qed.

Lemma roundup32_spec x : 0 < x <= 2 ^ 31 -> roundup32 x = 2 ^ Z.log2_up x.
Proof.
  intros Hx. destruct (Z.eq_dec x 1) as [->|Hne]; [reflexivity|].
  rewrite <- (smears_roundup 5 x) by (cbn in *; lia).
  unfold roundup32. replace (x =? 0) with false by lia.
  cbv zeta. cbv [doubling fold_left smear1 Z.mul Pos.mul]. reflexivity.
Qed.

Lemma roundup64_1 : roundup64 1 = 1.
Proof. reflexivity. Qed.

Lemma roundup64_least x : 1 < x <= two63 ->
  x <= roundup64 x /\ forall k, 0 <= k -> x <= 2 ^ k -> roundup64 x <= 2 ^ k.
Proof.
  intros Hx. rewrite roundup64_spec by lia.
  split; [apply Z.log2_up_spec; lia|]. intros k Hk Hxk.
  apply Z.pow_le_mono_r; [lia|]. apply Z.log2_up_le_pow2; lia.
Qed.

Lemma ensure_capacity_noop s m :
  m <= Z.of_nat (length (tbl s)) -> ensure_capacity s m = s.
Proof. intros H. unfold ensure_capacity. replace (_ >=? m) with true by lia. reflexivity. Qed.

Lemma table_size_shape L : 0 <= L ->
  exists k, 0 <= k /\ Z.max (2 ^ L) 8 = 8 * 2 ^ k /\ Z.shiftr (Z.max (2 ^ L) 8) 3 - 1 = Z.ones k.
Proof.
  intros HL. exists (Z.max L 3 - 3). split; [lia|].
  assert (E : Z.max (2 ^ L) 8 = 8 * 2 ^ (Z.max L 3 - 3)).
  { change 8 with (2 ^ 3). rewrite <- Z.pow_add_r by lia. replace (3 + (Z.max L 3 - 3)) with (Z.max L 3) by lia.
    destruct (Z.max_spec L 3) as [[H ->]|[H ->]].
    - apply Z.max_r. apply Z.pow_le_mono_r; lia.
    - apply Z.max_l. apply Z.pow_le_mono_r; lia. }
  split; [exact E|].
  rewrite E, Z.shiftr_div_pow2, Z.mul_comm, Z.div_mul, Z.ones_equiv by lia. lia.
Qed.

Lemma ensure_capacity_grows s m :
  Z.of_nat (length (tbl s)) < m -> m <= two63 ->
  let s' := ensure_capacity s m in
  inited s' = true /\ ssize s' = 0 /\
  Z.of_nat (length (tbl s')) = Z.max 8 (2 ^ Z.log2_up m) /\
  Forall (fun w => w = 0) (tbl s') /\ wf s'.
Proof.
  intros Hlt Hm. unfold ensure_capacity. replace (_ >=? m) with false by lia.
  rewrite roundup64_spec by lia. cbn [inited ssize tbl bmask].
  destruct (table_size_shape _ (Z.log2_up_nonneg m)) as (k & Hk & E & Hb).
  assert (Hlen : Z.of_nat (length (repeat 0 (Z.to_nat (Z.max (2 ^ Z.log2_up m) 8)))) = 8 * 2 ^ k).
  { rewrite repeat_length, Z2Nat.id; lia. }
  repeat split.
  - rewrite Hlen, Z.max_comm. symmetry; exact E.
  - apply Forall_forall. intros w Hw. apply repeat_spec in Hw. assumption.
  - intros _. exists k. auto.
Qed.

Lemma sketch0_wf : wf sketch0.
Proof. intros H. discriminate. Qed.

Lemma ensure_capacity_wf s m : wf s -> m <= two63 -> wf (ensure_capacity s m).
Proof.
  intros Hwf Hm. destruct (Z_lt_ge_dec (Z.of_nat (length (tbl s))) m) as [Hlt|Hge].
  - apply (ensure_capacity_grows s m Hlt Hm).
  - rewrite ensure_capacity_noop by lia. assumption.
Qed.

Lemma accept_sound s rc rv rnd :
  accept s rc rv rnd = true ->
  frequency s rc > frequency s rv \/ (frequency s rc >= 6 /\ Z.land rnd 127 = 0).
Proof.
  unfold accept, hashdosThreshold. intros H.
  destruct (frequency s rc >? frequency s rv) eqn:E1; [left; lia|].
  destruct (frequency s rc >=? 6) eqn:E2; [|discriminate].
  right. split; [lia|]. apply Z.eqb_eq. assumption.
Qed.

Lemma accept_complete s rc rv rnd :
  frequency s rc > frequency s rv -> accept s rc rv rnd = true.
Proof.
  unfold accept. intros H. replace (frequency s rc >? frequency s rv) with true by lia. reflexivity.
Qed.
