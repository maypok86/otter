(* MaintSplit.v — index actions INSIDE a maintenance run.  cache.maintenance drains the two buffers and
   then expires, evicts and climbs while holding only the eviction lock; a write needs no lock, so its
   index action and its task can land after the drain and before (or between) the removals — a node the
   run is about to expire or evict may already have been replaced or invalidated, with the task that
   says so still in the write buffer.  A run is split into its two parts (Maint.m_maint_pre, m_maint_post);
   each preserves the bookkeeping invariant for ANY pending tasks (PolicyInv.MI_maint_pre, MI_maint_post),
   so it holds however index actions, task arrivals and reads are interleaved with the halves of runs. *)
From Otter Require Import Base Policy Wheel Maint PolicyInv.

Inductive mevx :=
| XE (e : mev)                                  (* everything of PolicyInv.mev, whole maintenance runs included *)
| XPre (cur : Z -> Z)                           (* a run drains the read buffer and the write buffer *)
| XPost (cur : Z -> Z) (rnd now adj : Z).       (* ... and later expires, evicts and climbs *)

Definition sysx_step (hashf : Z -> Z -> Z) (s : msys) (x : mevx) : msys :=
  match x with
  | XE e => sys_step hashf s e
  | XPre cur => mkSys (fst (m_maint_pre hashf cur (sm s))) (sfl s)
  | XPost cur rnd now adj => mkSys (fst (fst (m_maint_post hashf cur rnd now adj (sm s)))) (sfl s)
  end.

Definition evx_ok (s : msys) (x : mevx) : Prop := match x with XE e => ev_ok s e | _ => True end.

Fixpoint runx_ok (hashf : Z -> Z -> Z) (s : msys) (xs : list mevx) : Prop :=
  match xs with
  | [] => True
  | x :: xs' => evx_ok s x /\ runx_ok hashf (sysx_step hashf s x) xs'
  end.

Lemma SX_step hashf s x : SI s -> evx_ok s x -> SI (sysx_step hashf s x).
Proof.
  intros HS Hok. destruct x as [e|cur|cur rnd now adj]; cbn [sysx_step evx_ok] in *.
  - apply SI_step; assumption.
  - unfold SI, pend in *. cbn [sm sfl].
    destruct (MI_maint_pre hashf cur (sm s) (sfl s) HS) as [A B]. rewrite B, app_nil_r. exact A.
  - unfold SI, pend in *. cbn [sm sfl].
    destruct (MI_maint_post hashf cur rnd now adj (sm s) _ HS) as [A B]. rewrite B. exact A.
Qed.

Theorem SX_run hashf xs : forall s, SI s -> runx_ok hashf s xs -> SI (fold_left (sysx_step hashf) xs s).
Proof.
  induction xs as [|x xs IH]; intros s HS Hok; cbn [fold_left]; [exact HS|].
  destruct Hok as [H1 H2]. apply IH; [apply SX_step; assumption|exact H2].
Qed.

Lemma sysx_pre_post hashf s cur rnd now adj :
  sysx_step hashf (sysx_step hashf s (XPre cur)) (XPost cur rnd now adj) = sys_step hashf s (EMaint cur rnd now adj).
Proof.
  cbn [sysx_step sys_step sm sfl]. rewrite m_maintenance_split.
  destruct (m_maint_pre hashf cur (sm s)) as [m2 evt]. cbn [fst].
  destruct (m_maint_post hashf cur rnd now adj m2) as [[m5 ex] evd]. reflexivity.
Qed.

(* whenever nothing is pending, the policy agrees with the table (PolicyInv.quiescent_agreement) — also when
   writes landed inside runs *)
Theorem policy_quiescent_x hashf xs expire weighted :
  runx_ok hashf (sys0 expire weighted) xs ->
  let s := fold_left (sysx_step hashf) xs (sys0 expire weighted) in
  pend s = [] -> PI (pol (sm s)) (cnew []) (cold []).
Proof.
  intros Hok s Hq.
  pose proof (SX_run hashf xs (sys0 expire weighted) (SI_sys0 expire weighted) Hok) as [_ HP]. fold s in HP. rewrite Hq in HP. exact HP.
Qed.
