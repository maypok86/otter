(* SeqRefine.v — the concrete sequential model refines the abstract map-with-deadlines.

   Main result [step_congruence]: the concrete step is a congruence for "equal after dropping
   dead entries": two states that agree on their live entries produce the same return value,
   the same callbacks and executor submissions, the same statistics, the same deletion events
   up to Expiration reports, and again agree on their live entries.  Instantiated with a state
   and its own purge this is the refinement Seq ⊑ Spec for every operation but an automatic
   removal, which [step_refines] treats apart (the sweep of a dead node has no abstract
   counterpart); [run_refines] lifts it to every operation sequence with a non-decreasing clock. *)
From Otter Require Import Base Seq Spec.
From Coq Require Import ZifyBool.
Local Open Scope Z_scope.

Arguments wraps : simpl never.
Arguments wrapu : simpl never.
Arguments satadd : simpl never.
Arguments abs64 : simpl never.
Arguments Z.modulo : simpl never.
Arguments Z.div : simpl never.

Lemma satadd_spec a b :
  0 <= a <= MaxInt64 -> 0 < b <= MaxInt64 -> satadd a b = Z.min MaxInt64 (a + b).
Proof.
  unfold satadd, wraps, MaxInt64, two63, two64. intros Ha Hb.
  destruct (Z_le_gt_dec (a + b) 9223372036854775807) as [Hs|Hl].
  - rewrite Z.mod_small by lia.
    replace (a + b + 9223372036854775808 - 9223372036854775808) with (a + b) by lia.
    replace (a + b <? a) with false by lia. replace (a + b <? b) with false by lia. simpl. lia.
  - assert (E : (a + b + 9223372036854775808) mod 18446744073709551616 = a + b + 9223372036854775808 - 18446744073709551616).
    { symmetry. apply Z.mod_unique with (q := 1); lia. }
    rewrite E.
    replace (a + b + 9223372036854775808 - 18446744073709551616 - 9223372036854775808 <? a) with true by lia.
    simpl. lia.
Qed.

Lemma wraps_le x : wraps x <= MaxInt64.
Proof. pose proof (wraps_range x) as H. unfold in_i64 in H. lia. Qed.

Lemma wraps_small x : - MaxInt64 <= x <= MaxInt64 -> wraps x = x.
Proof. intros H. apply wraps_id. unfold in_i64, MaxInt64, two63 in *. lia. Qed.

Lemma lookup_remove_same k m : lookup k (remove k m) = None.
Proof.
  induction m as [|[k' n] m IH]; simpl; [reflexivity|].
  destruct (k' =? k) eqn:E; simpl; [assumption|]. rewrite E. assumption.
Qed.

Lemma lookup_remove_other k k' m : k <> k' -> lookup k' (remove k m) = lookup k' m.
Proof.
  intros Hne. induction m as [|[k2 n] m IH]; simpl; [reflexivity|].
  destruct (k2 =? k) eqn:E; simpl; [|rewrite IH; reflexivity].
  replace (k2 =? k') with false by lia. assumption.
Qed.

Lemma lookup_mutate_same k f m :
  lookup k (mutate k f m) = match lookup k m with Some n => Some (f n) | None => None end.
Proof.
  induction m as [|[k' n] m IH]; simpl; [reflexivity|].
  destruct (k' =? k) eqn:E; simpl; rewrite E; [reflexivity|assumption].
Qed.

Lemma lookup_mutate_other k k' f m : k <> k' -> lookup k' (mutate k f m) = lookup k' m.
Proof.
  intros Hne. induction m as [|[k2 n] m IH]; simpl; [reflexivity|].
  destruct (k2 =? k) eqn:E; simpl; [|rewrite IH; reflexivity].
  replace (k2 =? k') with false by lia. assumption.
Qed.

Lemma map_fst_mutate k f m : map fst (mutate k f m) = map fst m.
Proof.
  unfold mutate. rewrite map_map. apply map_ext. intros [k' n]; simpl. destruct (k' =? k); reflexivity.
Qed.

Lemma mutate_notin k f m : ~ In k (map fst m) -> mutate k f m = m.
Proof.
  induction m as [|[k2 n2] m IH]; simpl; intros H; [reflexivity|].
  destruct (k2 =? k) eqn:E2; [exfalso; apply H; left; simpl; lia|].
  f_equal. apply IH. tauto.
Qed.

Lemma remove_notin k m : ~ In k (map fst m) -> remove k m = m.
Proof.
  induction m as [|[k' n'] m IH]; simpl; intros H; [reflexivity|].
  destruct (k' =? k) eqn:E; simpl; [exfalso; apply H; left; lia|].
  f_equal. apply IH. tauto.
Qed.

Lemma lookup_In k m n : lookup k m = Some n -> In (k, n) m.
Proof.
  induction m as [|[k' n'] m IH]; simpl; [discriminate|].
  destruct (k' =? k) eqn:E; [|right; apply IH; assumption].
  intros H; injection H as ->. apply Z.eqb_eq in E. subst. left; reflexivity.
Qed.

Lemma lookup_None_notin k m : lookup k m = None -> ~ In k (map fst m).
Proof.
  induction m as [|[k' n'] m IH]; simpl; [tauto|].
  destruct (k' =? k) eqn:E; [discriminate|].
  intros H [Hk|Hin]; [lia|]. apply (IH H Hin).
Qed.

Lemma In_lookup k n m : NoDup (map fst m) -> In (k, n) m -> lookup k m = Some n.
Proof.
  induction m as [|[k' n'] m IH]; simpl; intros Hnd Hin; [contradiction|].
  inversion Hnd as [|? ? Hn Hd]; subst. destruct Hin as [Heq|Hin].
  - injection Heq as -> ->. rewrite Z.eqb_refl. reflexivity.
  - destruct (k' =? k) eqn:E; [|apply IH; assumption].
    apply Z.eqb_eq in E. subst. exfalso. apply Hn. apply (in_map fst) in Hin. exact Hin.
Qed.

Lemma keys_filter (P : Z * node -> bool) m x : In x (map fst (filter P m)) -> In x (map fst m).
Proof. apply incl_map, incl_filter. Qed.

Lemma NoDup_keys_filter (P : Z * node -> bool) m : NoDup (map fst m) -> NoDup (map fst (filter P m)).
Proof.
  induction m as [|p m IH]; simpl; intros H; [constructor|].
  inversion H as [|? ? Hn Hd]; subst.
  destruct (P p); simpl; [|apply IH; assumption].
  constructor; [|apply IH; assumption]. intros Hin. apply Hn. eapply keys_filter, Hin.
Qed.

Lemma keys_remove k m x : In x (map fst (remove k m)) -> In x (map fst m) /\ x <> k.
Proof.
  intros H. apply in_map_iff in H. destruct H as (p & <- & Hp). apply filter_In in Hp.
  split; [apply in_map; tauto|lia].
Qed.

Lemma NoDup_remove k m : NoDup (map fst m) -> NoDup (map fst (remove k m)).
Proof. apply NoDup_keys_filter. Qed.

Lemma filter_map_inv {A} (P : A -> bool) g l :
  (forall x, In x l -> P (g x) = P x) -> filter P (map g l) = map g (filter P l).
Proof.
  induction l as [|x l IH]; intros H; simpl; [reflexivity|].
  rewrite (H x (or_introl eq_refl)), IH by (intros; apply H; right; assumption).
  destruct (P x); reflexivity.
Qed.

Section Refine.
Variable c : cfg.

Definition node_ok (n : node) : Prop := 0 <= nexp n <= MaxInt64 /\ 0 <= nrefr n <= MaxInt64.
Definition map_ok (m : kmap) : Prop := NoDup (map fst m) /\ Forall (fun p => node_ok (snd p)) m.
Definition time_ok (now : Z) : Prop := 0 <= now < MaxInt64.

(* what the calculators must satisfy: creation durations are positive and do not depend on the
   (meaningless) current duration; every duration fits time.Duration *)
Record cfg_ok : Prop := mkCfgOk {
  ec_pos : forall k v cur, 0 < exp_create c k v cur;
  ec_ind : forall k v c1 c2, exp_create c k v c1 = exp_create c k v c2;
  ec_rng : forall k v cur, exp_create c k v cur <= MaxInt64;
  eu_rng : forall k v o cur, cur <= MaxInt64 -> exp_update c k v o cur <= MaxInt64;
  er_rng : forall k v cur, cur <= MaxInt64 -> exp_read c k v cur <= MaxInt64;
  rc_pos : forall k v cur, 0 < refr_create c k v cur;
  rc_ind : forall k v c1 c2, refr_create c k v c1 = refr_create c k v c2;
  rc_rng : forall k v cur, refr_create c k v cur <= MaxInt64;
  ru_rng : forall k v o cur, cur <= MaxInt64 -> refr_update c k v o cur <= MaxInt64;
  rr_rng : forall k v o cur, cur <= MaxInt64 -> refr_reload c k v o cur <= MaxInt64;
  rf_rng : forall k v cur, cur <= MaxInt64 -> refr_fail c k v cur <= MaxInt64
}.
Hypothesis CO : cfg_ok.

Definition olive (now : Z) (o : option node) : option node :=
  match o with
  | Some n => if has_expired c n now then None else Some n
  | None => None
  end.

Definition eqv (now : Z) (m1 m2 : kmap) : Prop := purge c now m1 = purge c now m2.

(* the lookup/load counters agree; eviction counters are compared separately (a sweep of a dead
   node is counted concretely and invisible abstractly) *)
Definition srel (x y : stats) : Prop :=
  hits x = hits y /\ misses x = misses y /\ lsucc x = lsucc y /\ lfail x = lfail y.

Definition R (now : Z) (s a : cstate) : Prop :=
  eqv now (cmap s) (cmap a) /\ srel (cst s) (cst a) /\ map_ok (cmap s) /\ map_ok (cmap a).

Lemma purge_remove now k m : purge c now (remove k m) = remove k (purge c now m).
Proof.
  unfold purge, remove. induction m as [|p m IH]; simpl; [reflexivity|].
  destruct (negb (fst p =? k)) eqn:E1; destruct (live c now p) eqn:E2; simpl; rewrite ?E1, ?E2, IH; reflexivity.
Qed.

Lemma purge_put now k n m :
  purge c now (put k n m) =
  if has_expired c n now then remove k (purge c now m) else put k n (purge c now m).
Proof.
  unfold put. rewrite <- purge_remove. unfold purge, live. simpl.
  destruct (has_expired c n now); reflexivity.
Qed.

Lemma lookup_purge now k m :
  NoDup (map fst m) -> lookup k (purge c now m) = olive now (lookup k m).
Proof.
  induction m as [|[k' n] m IH]; simpl; intros Hnd; [reflexivity|].
  inversion Hnd as [|? ? Hn Hd]; subst.
  unfold live; simpl. destruct (k' =? k) eqn:E.
  - apply Z.eqb_eq in E. subst k'. unfold olive at 1. destruct (has_expired c n now); simpl.
    + rewrite IH by assumption.
      destruct (lookup k m) eqn:L; [|reflexivity].
      exfalso. apply Hn. apply lookup_In in L. apply (in_map fst) in L. exact L.
    + rewrite Z.eqb_refl. reflexivity.
  - destruct (has_expired c n now); simpl; rewrite ?E; apply IH; assumption.
Qed.

Lemma view_eq now m1 m2 k :
  NoDup (map fst m1) -> NoDup (map fst m2) -> eqv now m1 m2 ->
  olive now (lookup k m1) = olive now (lookup k m2).
Proof. intros H1 H2 E. rewrite <- !lookup_purge by assumption. rewrite E. reflexivity. Qed.

Lemma map_ok_filter P m : map_ok m -> map_ok (filter P m).
Proof.
  intros [H1 H2]. split; [apply NoDup_keys_filter; assumption|].
  apply (incl_Forall (incl_filter P m) H2).
Qed.

Lemma map_ok_put k n m : map_ok m -> node_ok n -> map_ok (put k n m).
Proof.
  intros Hm Hn. destruct (map_ok_filter (fun p => negb (fst p =? k)) m Hm) as [H1 H2]. split; simpl.
  - constructor; [|assumption]. intros Hin. apply keys_remove in Hin. tauto.
  - constructor; assumption.
Qed.

Lemma lookup_node_ok k m n : map_ok m -> lookup k m = Some n -> node_ok n.
Proof.
  intros [_ H] L. apply lookup_In in L. rewrite Forall_forall in H. apply (H _ L).
Qed.

Lemma satadd_ok now d : time_ok now -> 0 < d <= MaxInt64 -> 0 <= now < satadd now d /\ satadd now d <= MaxInt64.
Proof. unfold time_ok. intros Hn Hd. rewrite satadd_spec by lia. lia. Qed.

Lemma set_exp_after_read_ok n now d :
  time_ok now -> node_ok n -> d <= MaxInt64 -> node_ok (set_exp_after_read n now d).
Proof.
  intros Ht [He Hr] Hd. unfold set_exp_after_read.
  destruct (d <=? 0) eqn:E; [split; assumption|].
  destruct (0 <? _); [|split; assumption].
  pose proof (satadd_ok now d Ht ltac:(lia)). split; simpl; lia.
Qed.

Lemma set_exp_after_read_live n now d :
  time_ok now -> d <= MaxInt64 -> has_expired c n now = false ->
  has_expired c (set_exp_after_read n now d) now = false.
Proof.
  unfold has_expired. destruct (with_exp c); [|reflexivity]. cbn [andb]. intros Ht Hd Hl.
  unfold set_exp_after_read. destruct (d <=? 0) eqn:E; [assumption|].
  destruct (0 <? _); [|assumption].
  pose proof (satadd_ok now d Ht ltac:(lia)). simpl. lia.
Qed.

Lemma calc_exp_read_ok k n now :
  time_ok now -> node_ok n -> node_ok (calc_exp_read c k n now).
Proof.
  intros Ht Hn. unfold calc_exp_read. destruct (negb (with_exp c)); [assumption|].
  apply set_exp_after_read_ok; try assumption. apply (er_rng CO). apply wraps_le.
Qed.

Lemma calc_exp_read_live k n now :
  time_ok now -> has_expired c n now = false -> has_expired c (calc_exp_read c k n now) now = false.
Proof.
  intros Ht Hl. unfold calc_exp_read. destruct (negb (with_exp c)); [assumption|].
  apply set_exp_after_read_live; try assumption. apply (er_rng CO). apply wraps_le.
Qed.

Lemma calc_exp_read_fields k n now :
  nval (calc_exp_read c k n now) = nval n /\ nweight (calc_exp_read c k n now) = nweight n /\
  nrefr (calc_exp_read c k n now) = nrefr n.
Proof.
  unfold calc_exp_read, set_exp_after_read. destruct (negb (with_exp c)); [auto|].
  destruct (_ <=? 0); [auto|]. destruct (0 <? _); simpl; auto.
Qed.

Lemma calc_exp_write_ok k n old now :
  time_ok now -> node_ok n -> node_ok (calc_exp_write c k n old now).
Proof.
  intros Ht [He Hr]. unfold calc_exp_write. destruct (negb (with_exp c)); [split; assumption|].
  set (ea := match old with Some o => _ | None => _ end).
  destruct ((0 <? ea) && negb (_ =? ea)) eqn:E; [|split; assumption].
  assert (ea <= MaxInt64).
  { unfold ea. destruct old as [o|]; [destruct (has_expired c o now)|]; first [apply (ec_rng CO) | apply (eu_rng CO); apply wraps_le]. }
  pose proof (satadd_ok now ea Ht ltac:(lia)). split; simpl; lia.
Qed.

Lemma calc_refr_ok k n old cl now :
  time_ok now -> node_ok n -> node_ok (calc_refr c k n old cl now).
Proof.
  intros Ht [He Hr]. unfold calc_refr. destruct (negb (with_refr c)); [split; assumption|].
  match goal with |- node_ok (match ?X with Some _ => _ | None => _ end) => destruct X as [ra|] eqn:Era end;
    [|split; assumption].
  destruct ((0 <? ra) && negb (_ =? ra)) eqn:E; [|split; assumption].
  assert (ra <= MaxInt64).
  { revert Era. destruct cl as [|[] [] []], (match old with Some o => if has_expired c o now then None else Some o | None => None end);
      intros Era; try discriminate; injection Era as <-;
      first [apply (rc_rng CO) | apply (ru_rng CO) | apply (rr_rng CO) | apply (rf_rng CO)]; apply wraps_le. }
  pose proof (satadd_ok now ra Ht ltac:(lia)). split; simpl; lia.
Qed.

Lemma calc_refr_fields k n old cl now :
  nval (calc_refr c k n old cl now) = nval n /\ nweight (calc_refr c k n old cl now) = nweight n /\
  nexp (calc_refr c k n old cl now) = nexp n.
Proof.
  unfold calc_refr. destruct (negb (with_refr c)); [auto|].
  destruct (match cl with NoCall => _ | Call _ _ _ => _ end) as [ra|]; [|auto].
  destruct (_ && _); simpl; auto.
Qed.

Lemma calc_exp_write_fields k n old now :
  nval (calc_exp_write c k n old now) = nval n /\ nweight (calc_exp_write c k n old now) = nweight n /\
  nrefr (calc_exp_write c k n old now) = nrefr n.
Proof. unfold calc_exp_write. destruct (negb (with_exp c)); [auto|]. destruct (_ && _); simpl; auto. Qed.

Lemma new_node_ok k v old : (forall o, old = Some o -> node_ok o) -> node_ok (new_node c k v old).
Proof.
  intros H. unfold new_node, node_ok, MaxInt64; simpl. destruct old as [o|]; [|lia].
  destruct (H o eq_refl) as [He Hr]. unfold MaxInt64 in *.
  destruct (with_exp c); destruct (with_refr c); lia.
Qed.

Lemma atomic_set_ok k v old cl now :
  time_ok now -> (forall o, old = Some o -> node_ok o) -> node_ok (fst (atomic_set c k v old cl now)).
Proof.
  intros Ht Ho. apply calc_refr_ok, calc_exp_write_ok, new_node_ok; assumption.
Qed.

Definition vis (es : list event) : list event :=
  filter (fun e => negb (cause_eqb (ecause e) CExpiration)) es.

Lemma vis_app a b : vis (a ++ b) = vis a ++ vis b.
Proof. unfold vis. apply filter_app. Qed.

Lemma vis_dead k v n now d : has_expired c n now = true -> vis [mkEvent k v (get_cause c n now d)] = [].
Proof. intros X. unfold vis, get_cause. rewrite X. reflexivity. Qed.

(* for atomicSet as good as no entry.  [gone now s k] below is [ogone now (lookup k (cmap s))] written out. *)
Definition ogone (now : Z) (o : option node) : Prop :=
  o = None \/ exists n, o = Some n /\ has_expired c n now = true /\ node_ok n.

Definition gone (now : Z) (s : cstate) (k : Z) : Prop :=
  lookup k (cmap s) = None \/ exists n, lookup k (cmap s) = Some n /\ has_expired c n now = true /\ node_ok n.

(* a creation deadline replaces whatever deadline x the new node object starts with *)
Lemma create_deadline now x d :
  time_ok now -> 0 <= x <= MaxInt64 -> 0 < d <= MaxInt64 ->
  (0 <? d) && negb (wraps (x - now) =? d) = false -> x = satadd now d.
Proof.
  unfold time_ok. intros Ht Hx Hd. rewrite wraps_small, satadd_spec by lia. lia.
Qed.

Lemma calc_exp_write_create k n old now :
  with_exp c = true -> time_ok now -> ogone now old -> 0 <= nexp n <= MaxInt64 ->
  calc_exp_write c k n old now =
  mkNode (nval n) (nweight n) (satadd now (exp_create c k (nval n) 0)) (nrefr n).
Proof.
  intros Hw Ht G Hn. unfold calc_exp_write. rewrite Hw. cbn [negb].
  replace (match old with Some o => _ | None => _ end) with (exp_create c k (nval n) (wraps (nexp n - now)))
    by (destruct G as [->|(o & -> & X & _)]; [|rewrite X]; reflexivity).
  rewrite (ec_ind CO k _ _ 0). destruct (_ && _) eqn:E; [reflexivity|].
  destruct n as [v w e r]. cbn [nval nweight nexp nrefr] in *. f_equal.
  apply create_deadline; auto using (ec_pos CO), (ec_rng CO).
Qed.

Lemma calc_refr_create k n old cl now :
  with_refr c = true -> time_ok now -> ogone now old -> 0 <= nrefr n <= MaxInt64 ->
  calc_refr c k n old cl now =
  mkNode (nval n) (nweight n) (nexp n) (satadd now (refr_create c k (nval n) 0)).
Proof.
  intros Hw Ht G Hn. unfold calc_refr. rewrite Hw. cbn [negb].
  replace (match old with Some o => _ | None => _ end) with (@None node)
    by (destruct G as [->|(o & -> & X & _)]; [|rewrite X]; reflexivity).
  replace (match cl with NoCall => _ | Call _ _ _ => _ end) with (Some (refr_create c k (nval n) (wraps (nrefr n - now))))
    by (destruct cl as [|[] ? ?]; reflexivity).
  rewrite (rc_ind CO k _ _ 0). destruct (_ && _) eqn:E; [reflexivity|].
  destruct n as [v w e r]. cbn [nval nweight nexp nrefr] in *. f_equal.
  apply create_deadline; auto using (rc_pos CO), (rc_rng CO).
Qed.

Lemma atomic_set_gone k v o cl now :
  time_ok now -> ogone now o ->
  fst (atomic_set c k v o cl now) = fst (atomic_set c k v None cl now) /\
  vis (snd (atomic_set c k v o cl now)) = [].
Proof.
  intros Ht G. pose proof G as [->|(n & -> & X & On)]; [split; reflexivity|].
  split; [|apply vis_dead; assumption].
  assert (Hw : with_exp c = true) by (unfold has_expired in X; destruct (with_exp c); [reflexivity|discriminate]).
  pose proof (new_node_ok k v (Some n) ltac:(intros ? [= <-]; assumption)) as [He Hr].
  pose proof (new_node_ok k v None ltac:(discriminate)) as [He' Hr'].
  unfold atomic_set. cbn [fst].
  rewrite !calc_exp_write_create by (assumption || left; reflexivity).
  destruct (with_refr c) eqn:Hwr.
  - rewrite !calc_refr_create by (assumption || left; reflexivity). reflexivity.
  - unfold calc_refr, new_node. rewrite Hwr. reflexivity.
Qed.

Definition res_eq (r r' : result) : Prop :=
  r_ret r = r_ret r' /\ vis (r_events r) = vis (r_events r') /\ r_cb r = r_cb r' /\ r_spawn r = r_spawn r'.

Lemma res_eq_refl r : res_eq r r.
Proof. repeat split. Qed.

Lemma res_eq_mk r e e' cb sp : vis e = vis e' -> res_eq (mkResult r e cb sp) (mkResult r e' cb sp).
Proof. intros H. repeat split. exact H. Qed.

Definition rel2 {B} (now : Z) (S : B -> B -> Prop) (p q : cstate * B) : Prop :=
  S (snd p) (snd q) /\ R now (fst p) (fst q).

Definition SR (now : Z) (p q : cstate * result) : Prop :=
  res_eq (snd p) (snd q) /\ R now (fst p) (fst q).

Lemma SR_same now s a r : R now s a -> SR now (s, r) (a, r).
Proof. intros H. split; [apply res_eq_refl|exact H]. Qed.

Definition veq (e e' : list event) : Prop := vis e = vis e'.

Lemma veq_app a a' b b' : veq a a' -> veq b b' -> veq (a ++ b) (a' ++ b').
Proof. unfold veq. intros H1 H2. rewrite !vis_app. congruence. Qed.

Lemma rel2_bind {B Y} now (S : B -> B -> Prop) (Q : Y -> Y -> Prop) p q (F G : cstate -> B -> Y) :
  rel2 now S p q -> (forall s a x y, R now s a -> S x y -> Q (F s x) (G a y)) ->
  Q (let '(s, x) := p in F s x) (let '(a, y) := q in G a y).
Proof. destruct p, q. intros [H1 H2] K. apply K; assumption. Qed.

Lemma rel4_bind {B1 B2 B3 Y} now (S : B1 -> B1 -> Prop) (Q : Y -> Y -> Prop) (p q : cstate * B1 * B2 * B3)
      (F G : cstate -> B1 -> B2 -> B3 -> Y) :
  (let '(s, x1, x2, x3) := p in let '(a, y1, y2, y3) := q in S x1 y1 /\ x2 = y2 /\ x3 = y3 /\ R now s a) ->
  (forall s a x y x2 x3, R now s a -> S x y -> Q (F s x x2 x3) (G a y x2 x3)) ->
  Q (let '(s, x1, x2, x3) := p in F s x1 x2 x3) (let '(a, y1, y2, y3) := q in G a y1 y2 y3).
Proof. destruct p as [[[s x1] x2] x3], q as [[[a y1] y2] y3]. intros (H1 & <- & <- & H2) K. apply K; assumption. Qed.

Lemma R_refl now s : map_ok (cmap s) -> R now s s.
Proof. intros M. unfold R, eqv, srel. auto 10. Qed.

Lemma R_sym now x y : R now x y -> R now y x.
Proof. intros (E1 & (A & B & C & D) & E3 & E4). unfold R, eqv, srel in *. auto 10. Qed.

Lemma R_upd now s a m1 m2 :
  R now s a -> eqv now m1 m2 -> map_ok m1 -> map_ok m2 -> R now (upd_map s m1) (upd_map a m2).
Proof. intros (_ & St & _) E M1 M2. exact (conj E (conj St (conj M1 M2))). Qed.

Lemma R_upd_l now s a m :
  R now s a -> eqv now m (cmap s) -> map_ok m -> R now (upd_map s m) a.
Proof. intros (E & St & _ & Ma) Em Mm. exact (conj (eq_trans Em E) (conj St (conj Mm Ma))). Qed.

Lemma R_put now s a k n : R now s a -> node_ok n ->
  R now (upd_map s (put k n (cmap s))) (upd_map a (put k n (cmap a))).
Proof.
  intros HR Hn. pose proof HR as (E & _ & Ms & Ma).
  apply R_upd; [assumption| |apply map_ok_put; assumption..].
  unfold eqv in *. rewrite !purge_put, E. reflexivity.
Qed.

Lemma R_remove now s a k : R now s a ->
  R now (upd_map s (remove k (cmap s))) (upd_map a (remove k (cmap a))).
Proof.
  intros HR. pose proof HR as (E & _ & Ms & Ma).
  apply R_upd; [assumption| |apply map_ok_filter; assumption..].
  unfold eqv in *. rewrite !purge_remove, E. reflexivity.
Qed.

Definition keeps (now : Z) (f : node -> node) (n : node) : Prop :=
  has_expired c (f n) now = has_expired c n now /\ node_ok (f n).

Lemma purge_mutate now k f m :
  map_ok m -> match lookup k m with Some n => keeps now f n | None => True end ->
  purge c now (mutate k f m) = mutate k f (purge c now m) /\ map_ok (mutate k f m).
Proof.
  intros [Hnd Hok] Hf. rewrite Forall_forall in Hok.
  set (g := fun p : Z * node => if fst p =? k then (fst p, f (snd p)) else p).
  assert (H : forall p, In p m -> live c now (g p) = live c now p /\ node_ok (snd (g p))).
  { intros [k' n] Hin. unfold g, live. simpl. destruct (k' =? k) eqn:E; simpl.
    - apply Z.eqb_eq in E. subst k'. rewrite (In_lookup _ _ _ Hnd Hin) in Hf. destruct Hf as [-> Hf]. auto.
    - split; [reflexivity|apply (Hok _ Hin)]. }
  split; [apply filter_map_inv; intros p Hp; apply H, Hp|].
  split; [rewrite map_fst_mutate; assumption|]. apply Forall_map, Forall_forall. intros p Hp. apply H, Hp.
Qed.

Lemma R_mutate now s a k f n : R now s a ->
  lookup k (cmap s) = Some n -> lookup k (cmap a) = Some n -> keeps now f n ->
  R now (upd_map s (mutate k f (cmap s))) (upd_map a (mutate k f (cmap a))).
Proof.
  intros HR L1 L2 Hf. pose proof HR as (E & _ & Ms & Ma).
  destruct (purge_mutate now k f _ Ms) as [E1 M1]; [rewrite L1; assumption|].
  destruct (purge_mutate now k f _ Ma) as [E2 M2]; [rewrite L2; assumption|].
  apply R_upd; try assumption. unfold eqv in *. rewrite E1, E2, E. reflexivity.
Qed.

(* so dropping or mutating the node of a gone key is invisible *)
Lemma gone_notin now s k : map_ok (cmap s) -> gone now s k -> ~ In k (map fst (purge c now (cmap s))).
Proof.
  intros Ms G. apply lookup_None_notin. rewrite lookup_purge by apply Ms.
  destruct G as [L|(n & L & X & _)]; rewrite L; simpl; [|rewrite X]; reflexivity.
Qed.

Lemma R_remove_l now s a k : gone now s k -> R now s a -> R now (upd_map s (remove k (cmap s))) a.
Proof.
  intros G HR. pose proof HR as (_ & _ & Ms & _).
  apply R_upd_l; [assumption| |apply map_ok_filter; assumption].
  unfold eqv. rewrite purge_remove. apply remove_notin, gone_notin; assumption.
Qed.

Lemma srel_hit x y : srel x y -> srel (st_hit x) (st_hit y).
Proof. unfold srel, st_hit; cbn. intros (A & B & C & D). rewrite A. auto. Qed.
Lemma srel_miss x y : srel x y -> srel (st_miss x) (st_miss y).
Proof. unfold srel, st_miss; cbn. intros (A & B & C & D). rewrite B. auto. Qed.
Lemma srel_lsucc x y : srel x y -> srel (st_lsucc x) (st_lsucc y).
Proof. unfold srel, st_lsucc; cbn. intros (A & B & C & D). rewrite C. auto. Qed.
Lemma srel_lfail x y : srel x y -> srel (st_lfail x) (st_lfail y).
Proof. unfold srel, st_lfail; cbn. intros (A & B & C & D). rewrite D. auto. Qed.
Lemma srel_evict w w' x y : srel x y -> srel (st_evict w x) (st_evict w' y).
Proof. unfold srel, st_evict; cbn. auto. Qed.
Lemma srel_evict_l w x y : srel x y -> srel (st_evict w x) y.
Proof. unfold srel, st_evict; cbn. auto. Qed.

#[local] Hint Resolve srel_hit srel_miss srel_lsucc srel_lfail srel_evict : srel.

Lemma R_stat now s a f g : (forall x y, srel x y -> srel (f x) (g y)) -> R now s a -> R now (upd_st s f) (upd_st a g).
Proof. intros Hf (E & St & Ms & Ma). exact (conj E (conj (Hf _ _ St) (conj Ms Ma))). Qed.

Lemma purge_lookup_cases now m k : map_ok m ->
  match lookup k (purge c now m) with
  | Some n => lookup k m = Some n /\ has_expired c n now = false /\ node_ok n
  | None => ogone now (lookup k m)
  end.
Proof.
  intros Hm. rewrite lookup_purge by apply Hm. destruct (lookup k m) as [n|] eqn:L; simpl; [|left; reflexivity].
  pose proof (lookup_node_ok _ _ _ Hm L). destruct (has_expired c n now) eqn:X; [right|]; eauto.
Qed.

Lemma view_cases now s a k : R now s a ->
  (exists n, lookup k (cmap s) = Some n /\ lookup k (cmap a) = Some n /\ has_expired c n now = false /\ node_ok n) \/
  (gone now s k /\ gone now a k).
Proof.
  intros (E & _ & Ms & Ma).
  pose proof (purge_lookup_cases now _ k Ms) as V1. pose proof (purge_lookup_cases now _ k Ma) as V2.
  rewrite E in V1. destruct (lookup k (purge c now (cmap a))) as [n|]; [left; exists n|right]; tauto.
Qed.

(* afterRead: the read extension of a live node, the same on both sides *)
Lemma R_read now s a k n : time_ok now -> R now s a ->
  lookup k (cmap s) = Some n -> lookup k (cmap a) = Some n -> has_expired c n now = false -> node_ok n ->
  R now (upd_map s (mutate k (fun _ => calc_exp_read c k n now) (cmap s)))
        (upd_map a (mutate k (fun _ => calc_exp_read c k n now) (cmap a))).
Proof.
  intros Ht HR L1 L2 X O. apply (R_mutate now s a k _ n HR L1 L2). split.
  - rewrite X. apply calc_exp_read_live; assumption.
  - apply calc_exp_read_ok; assumption.
Qed.

Lemma get_node_gone now s k : gone now s k -> get_node c s k now = (upd_st s st_miss, None).
Proof. intros [L|(n & L & X & _)]; unfold get_node; rewrite L; [|rewrite X]; reflexivity. Qed.

Lemma get_node_R now s a k : time_ok now -> R now s a ->
  rel2 now eq (get_node c s k now) (get_node c a k now).
Proof.
  intros Ht HR. destruct (view_cases now s a k HR) as [(n & L1 & L2 & X & O)|[G1 G2]].
  - unfold get_node. rewrite L1, L2, X. split; [reflexivity|].
    apply R_stat; auto with srel. apply R_read; assumption.
  - rewrite (get_node_gone now s k G1), (get_node_gone now a k G2). split; [reflexivity|].
    apply R_stat; auto with srel.
Qed.

Lemma get_node_quietly_R now s a k : R now s a ->
  get_node_quietly c s k now = get_node_quietly c a k now.
Proof. intros (E & _ & Ms & Ma). apply (view_eq now _ _ k (proj1 Ms) (proj1 Ma) E). Qed.

(* atomicSet + put, the common part of every write: the installed node only depends on the view *)
Lemma put_R now s a k v cl : time_ok now -> R now s a ->
  let p := atomic_set c k v (lookup k (cmap s)) cl now in
  let q := atomic_set c k v (lookup k (cmap a)) cl now in
  fst p = fst q /\ veq (snd p) (snd q) /\
  R now (upd_map s (put k (fst p) (cmap s))) (upd_map a (put k (fst q) (cmap a))).
Proof.
  intros Ht HR p q. subst p q.
  destruct (view_cases now s a k HR) as [(n & L1 & L2 & X & O)|[G1 G2]].
  - rewrite L1, L2. split; [reflexivity|]. split; [reflexivity|]. apply R_put; [assumption|].
    apply atomic_set_ok; [assumption|]. intros ? [= <-]. assumption.
  - destruct (atomic_set_gone k v _ cl now Ht G1) as [E1 V1].
    destruct (atomic_set_gone k v _ cl now Ht G2) as [E2 V2].
    rewrite E1, E2. unfold veq. rewrite V1, V2. split; [reflexivity|]. split; [reflexivity|].
    apply R_put; [assumption|]. apply atomic_set_ok; [assumption|discriminate].
Qed.

Lemma do_set_gone now s k v oia : gone now s k ->
  do_set c s k v oia now =
  (upd_map s (put k (fst (atomic_set c k v (lookup k (cmap s)) NoCall now)) (cmap s)),
   mkResult (RVal v true) (snd (atomic_set c k v (lookup k (cmap s)) NoCall now)) [] []).
Proof.
  intros G. unfold do_set. destruct G as [L|(n & L & X & O)]; rewrite L; try rewrite X; cbn [negb];
    rewrite andb_false_r; destruct (atomic_set c k v _ NoCall now) as [nn evs]; cbn [fst snd];
    destruct oia; reflexivity.
Qed.

Lemma do_set_R now s a k v oia : time_ok now -> R now s a ->
  SR now (do_set c s k v oia now) (do_set c a k v oia now).
Proof.
  intros Ht HR. pose proof (put_R now s a k v NoCall Ht HR) as (_ & EV & HRp).
  destruct (view_cases now s a k HR) as [(n & L1 & L2 & X & O)|[G1 G2]].
  - unfold do_set. rewrite L1, L2 in *. rewrite X. destruct oia; cbn [negb andb].
    + apply SR_same. apply R_read; assumption.
    + destruct (atomic_set c k v (Some n) NoCall now). apply SR_same, HRp.
  - rewrite (do_set_gone now s k v oia G1), (do_set_gone now a k v oia G2).
    split; [apply res_eq_mk, EV|exact HRp].
Qed.

Lemma atomic_delete_R now s a k : R now s a ->
  veq (atomic_delete c k (lookup k (cmap s)) now) (atomic_delete c k (lookup k (cmap a)) now).
Proof.
  intros HR. destruct (view_cases now s a k HR) as [(n & L1 & L2 & _)|[G1 G2]].
  - rewrite L1, L2. reflexivity.
  - assert (D : forall s0, gone now s0 k -> vis (atomic_delete c k (lookup k (cmap s0)) now) = []).
    { intros s0 [L|(n & L & X & _)]; rewrite L; [reflexivity|]. apply vis_dead. assumption. }
    unfold veq. rewrite (D s G1), (D a G2). reflexivity.
Qed.

Lemma R_remove_gone now s a k : gone now s k -> gone now a k -> R now s a ->
  R now (upd_map s (remove k (cmap s))) (upd_map a (remove k (cmap a))).
Proof. intros _ _ HR. apply R_remove. assumption. Qed.

(* the "found" test of doCompute only depends on the view *)
Definition found_of (now : Z) (o : option node) : bool :=
  match o with Some n => negb (has_expired c n now) | None => false end.

Lemma gone_found now s k : gone now s k -> found_of now (lookup k (cmap s)) = false.
Proof. intros [L|(n & L & X & O)]; rewrite L; simpl; [reflexivity|rewrite X; reflexivity]. Qed.

Lemma option_gone s k now :
  (lookup k (cmap s) = None \/ exists n, lookup k (cmap s) = Some n /\ has_expired c n now = true /\ node_ok n) ->
  (lookup k (cmap s) = None \/ exists n, lookup k (cmap s) = Some n /\ has_expired c n now = true /\ node_ok n).
Proof. auto. Qed.

(* c.doCompute.  A cancelled compute drops the node of a gone key if there is one. *)
Definition rm_gone (s : cstate) (k : Z) : cstate :=
  match lookup k (cmap s) with Some _ => upd_map s (remove k (cmap s)) | None => s end.

Lemma R_rm_gone_l now s a k : gone now s k -> R now s a -> R now (rm_gone s k) a.
Proof. intros G HR. unfold rm_gone. destruct (lookup k (cmap s)); [apply R_remove_l|]; assumption. Qed.

Lemma R_stat_if now s a (rs : bool) f : (forall x y, srel x y -> srel (f x) (f y)) -> R now s a ->
  R now (if rs then upd_st s f else s) (if rs then upd_st a f else a).
Proof. intros Hf HR. destruct rs; [apply R_stat|]; assumption. Qed.

Lemma do_compute_gone now s k f rs : gone now s k ->
  do_compute c s k f now rs =
  let stat s := if rs then upd_st s st_miss else s in
  let cb := [CbRemap false 0] in
  let old := lookup k (cmap s) in
  match f false 0 with
  | RPanic | RRes _ OpInvalid => (s, mkResult RPanicked [] cb [])
  | RRes _ OpCancel => (stat (rm_gone s k), mkResult (RVal 0 false) (atomic_delete c k old now) cb [])
  | RRes v OpWrite =>
      (stat (upd_map s (put k (fst (atomic_set c k v old NoCall now)) (cmap s))),
       mkResult (RVal (nval (fst (atomic_set c k v old NoCall now))) true) (snd (atomic_set c k v old NoCall now)) cb [])
  | RRes _ OpInvalidate =>
      (stat (upd_map s (remove k (cmap s))), mkResult (RVal 0 false) (atomic_delete c k old now) cb [])
  end.
Proof.
  intros G. unfold do_compute, rm_gone.
  destruct G as [L|(n & L & X & O)]; rewrite L; try rewrite X; cbn [negb];
    destruct (f false 0) as [|v []]; try reflexivity;
    destruct (atomic_set c k v _ NoCall now) as [nn evs]; reflexivity.
Qed.

Lemma do_compute_R now s a k f rs : time_ok now -> R now s a ->
  SR now (do_compute c s k f now rs) (do_compute c a k f now rs).
Proof.
  intros Ht HR. pose proof (atomic_delete_R now s a k HR) as ED.
  assert (EP := fun v => put_R now s a k v NoCall Ht HR).
  destruct (view_cases now s a k HR) as [(n & L1 & L2 & X & O)|[G1 G2]].
  - unfold do_compute. rewrite L1, L2 in *. rewrite X. cbn [negb].
    destruct (f true (nval n)) as [|v []]; try (apply SR_same; assumption).
    + apply SR_same. apply R_stat_if; auto with srel.
    + destruct (EP v) as (_ & _ & HRp). destruct (atomic_set c k v (Some n) NoCall now).
      apply SR_same. apply R_stat_if; auto with srel.
    + apply SR_same. apply R_stat_if; auto with srel. apply R_remove. assumption.
  - rewrite (do_compute_gone now s k f rs G1), (do_compute_gone now a k f rs G2). cbv zeta.
    destruct (f false 0) as [|v []]; try (apply SR_same; assumption).
    + split; [apply res_eq_mk, ED|]. apply R_stat_if; auto with srel.
      apply R_rm_gone_l, R_sym, R_rm_gone_l, R_sym; assumption.
    + destruct (EP v) as (EN & EV & HRp).
      split; [rewrite EN; apply res_eq_mk, EV|]. apply R_stat_if; auto with srel.
    + split; [apply res_eq_mk, ED|]. apply R_stat_if; auto with srel. apply R_remove. assumption.
Qed.

Lemma gone_match {T} now s k (B : node -> T) (C : T) : gone now s k ->
  match lookup k (cmap s) with Some n => if has_expired c n now then C else B n | None => C end = C.
Proof. intros [L|(n & L & X & _)]; rewrite L; [|rewrite X]; reflexivity. Qed.

Lemma do_invalidate_R now s a k : R now s a ->
  SR now (do_invalidate c s k now) (do_invalidate c a k now).
Proof.
  intros HR. split; [|apply R_remove; assumption].
  unfold do_invalidate. cbn [snd]. destruct (view_cases now s a k HR) as [(n & L1 & L2 & _)|[G1 G2]].
  - rewrite L1, L2. apply res_eq_refl.
  - rewrite (gone_match now s k _ _ G1), (gone_match now a k _ _ G2).
    apply res_eq_mk, atomic_delete_R, HR.
Qed.

Lemma do_sea_R now s a k d : time_ok now -> d <= MaxInt64 -> R now s a ->
  R now (do_set_expires_after c s k d now) (do_set_expires_after c a k d now).
Proof.
  intros Ht Hd HR. unfold do_set_expires_after.
  destruct (negb (with_exp c) || (d <=? 0)); [assumption|].
  destruct (view_cases now s a k HR) as [(n & L1 & L2 & X & O)|[G1 G2]].
  - rewrite L1, L2, X. apply (R_mutate now s a k _ n HR L1 L2). split.
    + rewrite X. apply set_exp_after_read_live; assumption.
    + apply set_exp_after_read_ok; assumption.
  - rewrite (gone_match now s k _ _ G1), (gone_match now a k _ _ G2). assumption.
Qed.

(* a mutation that does not touch the expiration deadline, applied to the node of k on a condition
   each side evaluates on its own node: on a gone key the two sides may differ, invisibly *)
Lemma R_touch now s a k f (cond : node -> bool) : (forall n, node_ok n -> keeps now f n) -> R now s a ->
  R now (match lookup k (cmap s) with Some n => if cond n then upd_map s (mutate k f (cmap s)) else s | None => s end)
        (match lookup k (cmap a) with Some n => if cond n then upd_map a (mutate k f (cmap a)) else a | None => a end).
Proof.
  intros Hf HR. destruct (view_cases now s a k HR) as [(n & L1 & L2 & X & O)|[G1 G2]].
  - rewrite L1, L2. destruct (cond n); [|assumption]. apply (R_mutate now s a k f n); auto.
  - assert (E : forall s0 a0, gone now s0 k -> R now s0 a0 ->
                R now (match lookup k (cmap s0) with
                       | Some n => if cond n then upd_map s0 (mutate k f (cmap s0)) else s0
                       | None => s0 end) a0).
    { intros s0 a0 G HR0. destruct (lookup k (cmap s0)) as [n|] eqn:L; [destruct (cond n)|]; try assumption.
      pose proof HR0 as (_ & _ & Ms & _).
      destruct (purge_mutate now k f _ Ms) as [E1 M1]; [rewrite L; eapply Hf, lookup_node_ok; eassumption|].
      apply R_upd_l; try assumption. unfold eqv. rewrite E1. apply mutate_notin, gone_notin; assumption. }
    apply E, R_sym, E, R_sym; assumption.
Qed.

(* c.SetRefreshableAfter: mutates the refresh time only, even of a dead node *)
Lemma do_sra_R now s a k d : time_ok now -> d <= MaxInt64 -> R now s a ->
  R now (do_set_refreshable_after c s k d now) (do_set_refreshable_after c a k d now).
Proof.
  intros Ht Hd HR. unfold do_set_refreshable_after.
  destruct (negb (with_refr c) || (d <=? 0)) eqn:E0; [assumption|].
  apply (R_touch now s a k _ (fun n => negb (wraps (nrefr n - now) =? d))); [|assumption].
  intros n [He Hr]. split; [reflexivity|].
  pose proof (satadd_ok now d Ht ltac:(lia)). unfold node_ok; cbn [nexp nrefr]. lia.
Qed.

(* afterDeleteCall.  A failed load leaves the table alone; a failed reload only moves the refresh time. *)
Definition fin_err (s : cstate) (k : Z) (ir : bool) (now : Z) : cstate :=
  match lookup k (cmap s) with
  | Some _ => if ir then upd_map s (mutate k (fun o => calc_refr c k o (Some o) (Call true false true) now) (cmap s)) else s
  | None => s
  end.

Lemma finish_call_failed s k oc ir now : outcome_failed oc = true ->
  finish_call c s k oc ir now = (fin_err s k ir now, []).
Proof.
  unfold finish_call, fin_err. destruct oc; try discriminate; intros _;
    (destruct (lookup k (cmap s)); [destruct ir|]; reflexivity).
Qed.

Lemma fin_err_R now s a k ir : time_ok now -> R now s a -> R now (fin_err s k ir now) (fin_err a k ir now).
Proof.
  intros Ht HR. apply (R_touch now s a k _ (fun _ => ir)); [|assumption].
  intros n On. split; [|apply calc_refr_ok; assumption].
  unfold has_expired. rewrite (proj2 (proj2 (calc_refr_fields _ _ _ _ _))). reflexivity.
Qed.

Lemma finish_call_R now s a k oc ir : time_ok now -> R now s a ->
  rel2 now veq (finish_call c s k oc ir now) (finish_call c a k oc ir now).
Proof.
  intros Ht HR.
  destruct (outcome_failed oc) eqn:F.
  { rewrite !finish_call_failed by assumption. split; [reflexivity|]. apply fin_err_R; assumption. }
  destruct oc as [v| | |]; try discriminate; unfold finish_call.
  - destruct (put_R now s a k v (Call ir false false) Ht HR) as (_ & EV & HRp).
    destruct (atomic_set c k v (lookup k (cmap s)) _ now), (atomic_set c k v (lookup k (cmap a)) _ now).
    split; assumption.
  - split; [apply atomic_delete_R|apply R_remove]; assumption.
Qed.

Lemma load_stat_R now s a b : R now s a -> R now (load_stat b s) (load_stat b a).
Proof. intros H. unfold load_stat. destruct b; apply R_stat; auto with srel. Qed.

(* one loader invocation and the result built from it: the miss path of Get, and refreshKey's closure *)
Lemma run_load_R now s a k old oc ir : time_ok now -> R now s a ->
  SR now (let '(s2, evs, cb) := run_load c s k old oc ir now in (s2, mkResult (load_ret oc) evs cb []))
         (let '(a2, evs, cb) := run_load c a k old oc ir now in (a2, mkResult (load_ret oc) evs cb [])).
Proof.
  intros Ht HR. unfold run_load. destruct (finish_call_R now s a k oc ir Ht HR) as [V HR1].
  destruct (finish_call c s k oc ir now), (finish_call c a k oc ir now).
  split; [apply res_eq_mk, V|apply load_stat_R, HR1].
Qed.

Lemma get_node_bind now s a k (F G : cstate -> option node -> cstate * result) :
  time_ok now -> R now s a -> (forall s1 a1 g, R now s1 a1 -> SR now (F s1 g) (G a1 g)) ->
  SR now (let '(s1, g) := get_node c s k now in F s1 g) (let '(a1, g) := get_node c a k now in G a1 g).
Proof.
  intros Ht HR K. apply (rel2_bind now eq _ _ _ _ _ (get_node_R now s a k Ht HR)).
  intros s1 a1 g ? HR1 <-. apply K, HR1.
Qed.

Lemma do_get_R now s a k oc : time_ok now -> R now s a ->
  SR now (do_get c s k oc now now) (do_get c a k oc now now).
Proof.
  intros Ht HR. apply get_node_bind; [assumption..|]. intros s1 a1 [n|] HR1.
  - apply SR_same; assumption.
  - apply run_load_R; assumption.
Qed.

Lemma bulk_read_R now ks : forall s a, time_ok now -> R now s a ->
  let '(s1, h, st, m) := bulk_read c s ks now in
  let '(a1, h', st', m') := bulk_read c a ks now in
  h = h' /\ st = st' /\ m = m' /\ R now s1 a1.
Proof.
  induction ks as [|k ks IH]; intros s a Ht HR; cbn [bulk_read]; [auto|].
  destruct (get_node_R now s a k Ht HR) as [Eg HR1].
  destruct (get_node c s k now) as [s1 g], (get_node c a k now) as [a1 g']. cbn [fst snd] in *. subst g'.
  specialize (IH s1 a1 Ht HR1).
  destruct (bulk_read c s1 ks now) as [[[s2 h1] st1] m1], (bulk_read c a1 ks now) as [[[a2 h2] st2] m2].
  destruct IH as (-> & -> & -> & HR2). destruct g; auto.
Qed.

Lemma finish_calls_R now res ir ks : forall s a, time_ok now -> R now s a ->
  rel2 now veq (finish_calls c s ks res ir now) (finish_calls c a ks res ir now).
Proof.
  induction ks as [|k ks IH]; intros s a Ht HR; cbn [finish_calls].
  - split; [reflexivity|assumption].
  - apply (rel2_bind now veq _ _ _ _ _ (finish_call_R now s a k _ ir Ht HR)). intros s1 a1 e1 e1' HR1 V1.
    apply (rel2_bind now veq _ _ _ _ _ (IH s1 a1 Ht HR1)). intros s2 a2 e2 e2' HR2 V2.
    split; [apply veq_app|]; assumption.
Qed.

Lemma install_extras_R now ir xs : forall s a, time_ok now -> R now s a ->
  rel2 now veq (install_extras c s xs ir now) (install_extras c a xs ir now).
Proof.
  induction xs as [|[k v] xs IH]; intros s a Ht HR; cbn [install_extras].
  - split; [reflexivity|assumption].
  - apply (rel2_bind now veq _ _ _ _ _ (finish_call_R now s a k _ ir Ht HR)). intros s1 a1 e1 e1' HR1 V1.
    apply (rel2_bind now veq _ _ _ _ _ (IH s1 a1 Ht HR1)). intros s2 a2 e2 e2' HR2 V2.
    split; [apply veq_app|]; assumption.
Qed.

Lemma run_bulk_R now s a ks bo ir : time_ok now -> R now s a ->
  rel2 now veq (run_bulk c s ks bo ir now) (run_bulk c a ks bo ir now).
Proof.
  intros Ht HR. unfold run_bulk.
  destruct bo as [m| |]; apply (rel2_bind now veq _ _ _ _ _ (finish_calls_R now _ ir ks s a Ht HR));
    intros s1 a1 e1 e1' HR1 V1; try (split; [assumption|apply load_stat_R, HR1]).
  apply (rel2_bind now veq _ _ _ _ _ (install_extras_R now ir _ s1 a1 Ht HR1)). intros s2 a2 e2 e2' HR2 V2.
  split; [apply veq_app; assumption|apply load_stat_R, HR2].
Qed.

Lemma do_bulk_get_R now s a ks bo : time_ok now -> R now s a ->
  SR now (do_bulk_get c s ks bo now now) (do_bulk_get c a ks bo now now).
Proof.
  intros Ht HR. unfold do_bulk_get. eapply (rel4_bind now eq); [apply bulk_read_R; assumption|].
  intros s1 a1 h ? st m HR1 <-. destruct m as [|k0 m].
  - apply SR_same; assumption.
  - apply (rel2_bind now veq _ _ _ _ _ (run_bulk_R now s1 a1 _ bo false Ht HR1)). intros s2 a2 e e' HR2 V.
    destruct bo; (split; [apply res_eq_mk, V|assumption]).
Qed.

Lemma do_bulk_refresh_R now s a ks : R now s a ->
  SR now (do_bulk_refresh c s ks now) (do_bulk_refresh c a ks now).
Proof.
  intros HR. unfold do_bulk_refresh. destruct (negb (with_refr c)).
  - apply SR_same; assumption.
  - erewrite map_ext by (intros k; rewrite (get_node_quietly_R now s a k HR); reflexivity).
    apply SR_same; assumption.
Qed.

Lemma do_run_bulk_refresh_R now s a rks bl br : time_ok now -> R now s a ->
  SR now (do_run_bulk_refresh c s rks bl br now) (do_run_bulk_refresh c a rks bl br now).
Proof.
  intros Ht HR. unfold do_run_bulk_refresh. eapply (rel4_bind now veq).
  - (* the load call, if any *)
    destruct (map fst (filter _ rks)) as [|l0 ls]; [split; [reflexivity|auto]|].
    destruct (run_bulk_R now s a (l0 :: ls) bl true Ht HR) as [V HR1].
    destruct (run_bulk c s (l0 :: ls) bl true now), (run_bulk c a (l0 :: ls) bl true now). auto.
  - (* the reload call, if any *)
    intros s1 a1 e1 e1' cb1 p HR1 V1. destruct p; [split; [apply res_eq_mk, V1|assumption]|].
    destruct (map fst (filter _ rks)) as [|r0 rs]; [split; [apply res_eq_mk, V1|assumption]|].
    apply (rel2_bind now veq _ _ _ _ _ (run_bulk_R now s1 a1 _ br true Ht HR1)). intros s2 a2 e2 e2' HR2 V2.
    destruct br; (split; [apply res_eq_mk, veq_app; assumption|assumption]).
Qed.

(* iteration and InvalidateAll only see live entries *)
Lemma live_pairs_purge now m : live_pairs c m now = map (fun p => (fst p, nval (snd p))) (purge c now m).
Proof. reflexivity. Qed.

Lemma vis_invalidate_all now m :
  vis (map (fun p => mkEvent (fst p) (nval (snd p)) (get_cause c (snd p) now CInvalidation)) m) =
  map (fun p => mkEvent (fst p) (nval (snd p)) CInvalidation) (purge c now m).
Proof.
  unfold vis, purge, live, get_cause. induction m as [|p m IH]; [reflexivity|].
  cbn [map filter ecause]. destruct (has_expired c (snd p) now); cbn [negb cause_eqb map]; rewrite IH; reflexivity.
Qed.

Definition is_auto (o : op) : bool := match o with OAuto _ _ _ _ => true | _ => false end.

Definition op_ok (o : op) : Prop :=
  time_ok (op_now o) /\
  match o with
  | OSetExpiresAfter _ d _ | OSetRefreshableAfter _ d _ => d <= MaxInt64
  | OGet _ _ now now2 | OBulkGet _ _ now now2 => now2 = now
  | _ => True
  end.

Theorem step_congruence s a o :
  op_ok o -> is_auto o = false -> R (op_now o) s a -> SR (op_now o) (step c s o) (step c a o).
Proof.
  intros [Ht Hop] Hna HR. pose proof HR as (E & _).
  destruct o; cbn [op_now] in *; cbn [step]; try discriminate.
  - apply do_set_R; assumption.
  - apply do_set_R; assumption.
  - apply get_node_bind; [assumption..|]. intros s1 a1 g HR1. apply SR_same; assumption.
  - apply get_node_bind; [assumption..|]. intros s1 a1 g HR1. apply SR_same; assumption.
  - rewrite (get_node_quietly_R now s a k HR). apply SR_same; assumption.
  - apply do_compute_R; assumption.
  - apply get_node_bind; [assumption..|]. intros s1 a1 [n|] HR1; [apply SR_same; assumption|].
    apply do_compute_R; assumption.
  - apply get_node_bind; [assumption..|]. intros s1 a1 [n|] HR1; [|apply SR_same; assumption].
    apply do_compute_R; assumption.
  - apply do_invalidate_R; assumption.
  - split; [apply res_eq_mk; unfold veq; rewrite !vis_invalidate_all, E; reflexivity|].
    apply R_upd; [assumption|reflexivity|split; constructor..].
  - apply SR_same. apply do_sea_R; assumption.
  - apply SR_same. apply do_sra_R; assumption.
  - subst now2. apply do_get_R; assumption.
  - subst now2. apply do_bulk_get_R; assumption.
  - unfold do_refresh. destruct (negb (with_refr c)); [apply SR_same; assumption|].
    rewrite (get_node_quietly_R now s a k HR). apply SR_same; assumption.
  - apply do_bulk_refresh_R; assumption.
  - apply run_load_R; assumption.
  - apply do_run_bulk_refresh_R; assumption.
  - split; [|assumption]. cbn [snd]. rewrite !live_pairs_purge, E. apply res_eq_refl.
Qed.

Lemma has_expired_mono now now' n : now <= now' -> has_expired c n now' = false -> has_expired c n now = false.
Proof. unfold has_expired. intros H. destruct (with_exp c); cbn [andb]; [|reflexivity]. lia. Qed.

Lemma purge_purge now now' m : now <= now' -> purge c now' (purge c now m) = purge c now' m.
Proof.
  intros H. unfold purge. induction m as [|p m IH]; [reflexivity|]. cbn [filter].
  destruct (live c now p) eqn:L1; cbn [filter]; rewrite IH; [reflexivity|].
  unfold live in *. destruct (has_expired c (snd p) now') eqn:L2; [reflexivity|].
  rewrite (has_expired_mono now now' _ H L2) in L1. discriminate.
Qed.

Lemma R_mono now now' s a : now <= now' -> R now s a -> R now' s a.
Proof.
  intros H (E & St & Ms & Ma). unfold R, eqv in *. split; [|auto].
  rewrite <- (purge_purge now now' (cmap s) H), <- (purge_purge now now' (cmap a) H). rewrite E. reflexivity.
Qed.

Lemma R_purge_r now s a : R now s a -> R now s (purge_st c now a).
Proof.
  intros HR. apply R_sym, (R_upd_l now a s); [apply R_sym, HR|apply purge_purge; lia|apply map_ok_filter, HR].
Qed.

Lemma R_evict_l now s a w : R now s a -> R now (upd_st s (st_evict w)) a.
Proof. intros (E & St & Ms & Ma). exact (conj E (conj (srel_evict_l _ _ _ St) (conj Ms Ma))). Qed.

Definition res_sim (o : op) (r r' : result) : Prop :=
  if is_auto o then (r_ret r = RNone -> r_ret r' = RNone) else res_eq r r'.

(* An automatic removal takes a live node away on both sides, or (the sweep of a dead node) is invisible
   abstractly; every other step is the congruence between s and the purged abstract state. *)
Theorem step_refines s a o :
  op_ok o -> R (op_now o) s a ->
  res_sim o (snd (step c s o)) (snd (spec_step c a o)) /\
  R (op_now o) (fst (step c s o)) (fst (spec_step c a o)).
Proof.
  intros Hok HR0. pose proof (R_purge_r _ s a HR0) as HR. unfold res_sim. destruct (is_auto o) eqn:Ea.
  2:{ replace (spec_step c a o) with (step c (purge_st c (op_now o) a) o) by (destruct o; try discriminate; reflexivity).
      apply step_congruence; assumption. }
  destruct o; try discriminate. unfold spec_step. cbn [op_now step is_auto] in *.
  set (a' := purge_st c now a) in *.
  destruct (view_cases now s a' k HR) as [(n & L1 & L2 & X & O)|[G1 G2]].
  - rewrite L2. unfold do_auto. rewrite L1, L2.
    destruct (nval n =? v); [|split; [discriminate|assumption]]. cbn [andb].
    destruct (match cs with COverflow => bounded c | CExpiration => has_expired c n now | _ => false end);
      [|split; [discriminate|assumption]].
    split; [reflexivity|]. apply R_stat; auto with srel. apply R_remove, HR.
  - (* the abstract map holds no dead node *)
    assert (L2 : lookup k (cmap a') = None).
    { destruct G2 as [L|(n & L & X & _)]; [assumption|].
      pose proof (purge_lookup_cases now (cmap a) k ltac:(apply HR0)) as V.
      unfold a', purge_st in L; cbn [cmap] in L. rewrite L in V. destruct V as (_ & X' & _). congruence. }
    rewrite L2. split; [reflexivity|]. unfold do_auto.
    destruct (lookup k (cmap s)); [destruct (_ && _)|]; try assumption.
    apply R_evict_l, R_remove_l; assumption.
Qed.

Fixpoint clock_ok (t : Z) (ops : list op) : Prop :=
  match ops with
  | [] => True
  | o :: ops' => t <= op_now o /\ op_ok o /\ clock_ok (op_now o) ops'
  end.

Fixpoint sim_list (ops : list op) (rs rs' : list result) : Prop :=
  match ops, rs, rs' with
  | [], [], [] => True
  | o :: ops', r :: rs1, r' :: rs1' => res_sim o r r' /\ sim_list ops' rs1 rs1'
  | _, _, _ => False
  end.

Fixpoint last_time (t : Z) (ops : list op) : Z :=
  match ops with [] => t | o :: ops' => last_time (op_now o) ops' end.

Theorem run_refines ops : forall t s a,
  clock_ok t ops -> R t s a ->
  sim_list ops (snd (run c s ops)) (snd (spec_run c a ops)) /\
  R (last_time t ops) (fst (run c s ops)) (fst (spec_run c a ops)).
Proof.
  induction ops as [|o ops IH]; intros t s a Hc HR; cbn [run spec_run].
  - cbn. auto.
  - destruct Hc as (Hle & Hok & Hc').
    pose proof (step_refines s a o Hok (R_mono t (op_now o) s a Hle HR)) as [Hr HR1].
    destruct (step c s o) as [s1 r]. destruct (spec_step c a o) as [a1 r']. cbn [fst snd] in *.
    specialize (IH (op_now o) s1 a1 Hc' HR1).
    destruct (run c s1 ops) as [s2 rs]. destruct (spec_run c a1 ops) as [a2 rs']. cbn [fst snd last_time sim_list] in *.
    destruct IH as [H1 H2]. auto.
Qed.

Lemma R_init t : R t cstate0 cstate0.
Proof. apply R_refl. split; constructor. Qed.

End Refine.
