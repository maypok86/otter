(* LoadProofs.v — invariants of the single-flight protocol for every event sequence (C08, C09).

   Every event either adds one call record with a fresh id or rewrites the record of one id, and
   changes that id's entry of the calls table accordingly: [linv_set_call] is the one preservation
   lemma for that shape, and each event instantiates it. *)
From Otter Require Import Base Load.
From Coq Require Import ZifyBool.
Local Open Scope Z_scope.

Record linv (s : lstate) : Prop := mkLinv {
  v_ids : forall c, In c (lcalls s) -> cid c < lnext s;
  v_distinct : forall c1 c2, In c1 (lcalls s) -> In c2 (lcalls s) -> cid c1 = cid c2 -> c1 = c2;
  (* the calls table holds exactly the pending, unsuperseded calls *)
  v_table_sound : forall k id, alookup k (ltable s) = Some id ->
                  exists c, In c (lcalls s) /\ cid c = id /\ ckey c = k /\ cdone c = None /\ csuperseded c = false;
  v_table_complete : forall c, In c (lcalls s) -> cdone c = None -> csuperseded c = false ->
                     alookup (ckey c) (ltable s) = Some (cid c);
  (* C09: a superseded call never installs; an installed call is finished *)
  v_no_stale_install : forall c, In c (lcalls s) -> cinstalled c = true -> csuperseded c = false /\ cdone c <> None;
  (* every waiter waits for a pending call *)
  v_waiters : forall t id, In (t, id) (lwaits s) -> exists c, In c (lcalls s) /\ cid c = id /\ cdone c = None
}.

Lemma alookup_aremove k k' m : alookup k' (aremove k m) = if k =? k' then None else alookup k' m.
Proof.
  induction m as [|[k2 v] m IH]; simpl; [destruct (k =? k'); reflexivity|].
  destruct (Z.eqb_spec k2 k) as [->|N]; simpl; [|destruct (Z.eqb_spec k2 k') as [->|]].
  - rewrite IH. destruct (k =? k'); reflexivity.
  - replace (k =? k') with false by lia. reflexivity.
  - assumption.
Qed.

Lemma alookup_aremove_same k m : alookup k (aremove k m) = None.
Proof. rewrite alookup_aremove, Z.eqb_refl. reflexivity. Qed.

Lemma alookup_aput k v m k' : alookup k' (aput k v m) = if k =? k' then Some v else alookup k' m.
Proof. unfold aput. simpl. rewrite alookup_aremove. destruct (k =? k'); reflexivity. Qed.

Lemma in_upd_call cs c f x :
  (forall a b, In a cs -> In b cs -> cid a = cid b -> a = b) -> In c cs ->
  In x (upd_call cs (cid c) f) <-> x = f c \/ In x cs /\ cid x <> cid c.
Proof.
  intros Dis Hc. unfold upd_call. rewrite in_map_iff. split.
  - intros (a & <- & Ha). destruct (Z.eqb_spec (cid a) (cid c)) as [E|N]; [left; f_equal; apply Dis|]; auto.
  - intros [->|[Hx N]]; [exists c; rewrite Z.eqb_refl; auto|].
    exists x. destruct (Z.eqb_spec (cid x) (cid c)); [contradiction|auto].
Qed.

Lemma linv_init : linv lstate0.
Proof. constructor; simpl; intros; try contradiction; discriminate. Qed.

Lemma linv_set_map s m' : linv s -> linv (mkL m' (ltable s) (lcalls s) (lnext s) (lwaits s)).
Proof. intros [Ids Dis Ts Tc Ni Wt]. constructor; assumption. Qed.

(* The table entries of ids other than [cid c'] stay, and [ckey c' -> cid c'] is there iff [c'] is
   pending and unsuperseded; waiters of that id remain only if [c'] is pending. *)
Lemma linv_set_call s c' m' tbl' calls' next' waits' :
  linv s ->
  (forall x, In x calls' <-> x = c' \/ In x (lcalls s) /\ cid x <> cid c') ->
  cid c' < next' -> lnext s <= next' ->
  (forall k id, alookup k tbl' = Some id <->
     (id = cid c' /\ k = ckey c' /\ cdone c' = None /\ csuperseded c' = false) \/
     (id <> cid c' /\ alookup k (ltable s) = Some id)) ->
  (cinstalled c' = true -> csuperseded c' = false /\ cdone c' <> None) ->
  (forall t id, In (t, id) waits' -> if id =? cid c' then cdone c' = None else In (t, id) (lwaits s)) ->
  linv (mkL m' tbl' calls' next' waits').
Proof.
  intros [Ids Dis Ts Tc Ni Wt] Hc Hid Hnext Htbl Hinst Hw.
  constructor; cbn [lcalls ltable lnext lwaits].
  - intros x Hx. apply Hc in Hx. destruct Hx as [->|[Hx _]]; [assumption|]. specialize (Ids x Hx). lia.
  - intros x y Hx Hy E. apply Hc in Hx. apply Hc in Hy.
    destruct Hx as [->|[Hx Nx]], Hy as [->|[Hy Ny]]; try reflexivity; try congruence. apply Dis; assumption.
  - intros k i L. apply Htbl in L. destruct L as [(E & -> & R)|[N L]].
    + exists c'. rewrite Hc. auto.
    + destruct (Ts k i L) as (x & Hx & <- & R). exists x. rewrite Hc. auto.
  - intros x Hx P S. apply Htbl. apply Hc in Hx. destruct Hx as [->|[Hx N]]; [left|right]; auto.
  - intros x Hx. apply Hc in Hx. destruct Hx as [->|[Hx _]]; [assumption|apply Ni; assumption].
  - intros t i H. specialize (Hw t i H). destruct (Z.eqb_spec i (cid c')) as [E|N].
    + exists c'. rewrite Hc. auto.
    + destruct (Wt t i Hw) as (x & Hx & <- & P). exists x. rewrite Hc. auto.
Qed.

Lemma table_key s c k : linv s -> In c (lcalls s) -> alookup k (ltable s) = Some (cid c) ->
  k = ckey c /\ cdone c = None /\ csuperseded c = false.
Proof.
  intros I Hc L. destruct (v_table_sound s I k _ L) as (x & Hx & E & <- & R).
  rewrite <- (v_distinct s I x c Hx Hc E). auto.
Qed.

Lemma table_unregister s c k id : linv s -> In c (lcalls s) -> alookup (ckey c) (ltable s) = Some (cid c) ->
  alookup k (aremove (ckey c) (ltable s)) = Some id <-> id <> cid c /\ alookup k (ltable s) = Some id.
Proof.
  intros I Hc L. rewrite alookup_aremove. destruct (Z.eqb_spec (ckey c) k) as [<-|N].
  - rewrite L. split; [discriminate|]. intros [N E]. congruence.
  - split; [|tauto]. intros E. split; [|assumption]. intros ->. apply N. symmetry. apply (table_key s c k I Hc E).
Qed.

Lemma find_call s c : linv s -> In c (lcalls s) -> find (fun x => cid x =? cid c) (lcalls s) = Some c.
Proof.
  intros I Hc. destruct (find _ (lcalls s)) as [x|] eqn:F.
  - apply find_some in F. f_equal. apply (v_distinct s I); [tauto|assumption|lia].
  - apply (find_none _ _ F) in Hc. lia.
Qed.

(* afterDeleteCall's isCorrectCall: is [c] still the registered call of its key? *)
Definition correct (s : lstate) (c : lcall) : bool :=
  match alookup (ckey c) (ltable s) with Some id => id =? cid c | None => false end.

Lemma correct_spec s c : reflect (alookup (ckey c) (ltable s) = Some (cid c)) (correct s c).
Proof.
  unfold correct. destruct (alookup (ckey c) (ltable s)) as [id|]; [|constructor; discriminate].
  destruct (Z.eqb_spec id (cid c)); constructor; congruence.
Qed.

(* the finish of a pending call, with [find] and the outcome match resolved; the main map changes
   only if the call is still registered *)
Lemma lstep_finish s c oc :
  find (fun x => cid x =? cid c) (lcalls s) = Some c -> cdone c = None ->
  let inst := match oc with OValue _ => correct s c | _ => false end in
  exists m', (correct s c = false -> m' = lmap s) /\
  lstep s (LFinish (cid c) oc) =
  (mkL m' (if correct s c then aremove (ckey c) (ltable s) else ltable s)
       (upd_call (lcalls s) (cid c) (fun x => mkCall (cid x) (ckey x) (crefresh x) (Some oc) (csuperseded x) inst))
       (lnext s) (filter (fun p => negb (snd p =? cid c)) (lwaits s)),
   ObsFinished inst (map fst (filter (fun p => snd p =? cid c) (lwaits s)))).
Proof.
  intros F D. cbn [lstep]. rewrite F, D. fold (correct s c).
  destruct oc, (correct s c); eexists; (split; [|reflexivity]); intros; (reflexivity || discriminate).
Qed.

Lemma supersede_inv s k m' : linv s ->
  let s1 := supersede s k in linv (mkL m' (ltable s1) (lcalls s1) (lnext s1) (lwaits s1)).
Proof.
  intros I. unfold supersede. destruct (alookup k (ltable s)) as [id|] eqn:L; [|apply linv_set_map; assumption].
  destruct (v_table_sound s I k id L) as (c & Hc & <- & <- & P & S). cbn [ltable lcalls lnext lwaits].
  apply (linv_set_call s (mkCall (cid c) (ckey c) (crefresh c) (cdone c) true (cinstalled c))); cbn [cid ckey cdone csuperseded cinstalled]; try assumption.
  - intros x. apply in_upd_call; [apply (v_distinct s I)|assumption].
  - apply (v_ids s I c Hc).
  - lia.
  - intros k' id. rewrite (table_unregister s c) by assumption. intuition discriminate.
  - intros Hi. destruct (v_no_stale_install s I c Hc Hi). contradiction.
  - intros t id Hw. destruct (id =? cid c); assumption.
Qed.

Theorem lstep_inv s e : linv s -> linv (fst (lstep s e)).
Proof.
  intros I. destruct e as [t k refresh|id oc|k v|k|k v].
  - cbn [lstep]. destruct (alookup k (ltable s)) as [id|] eqn:L; cbn [fst].
    + (* join: one more waiter of a registered call *)
      destruct (v_table_sound s I k id L) as (c & Hc & E & _ & P & _).
      destruct I as [Ids Dis Ts Tc Ni Wt]. constructor; cbn [lcalls ltable lnext lwaits]; try assumption.
      intros t' id' [[= <- <-]|Hw]; eauto.
    + (* a new call, registered under the fresh id *)
      apply (linv_set_call s (mkCall (lnext s) k refresh None false false)); cbn [cid ckey cdone csuperseded cinstalled]; try assumption; try lia.
      * intros x. cbn [In]. pose proof (v_ids s I x). intuition (subst; auto; lia).
      * intros k' id. rewrite alookup_aput. destruct (Z.eqb_spec k k') as [<-|N].
        -- rewrite L. intuition congruence.
        -- split; [|intuition congruence]. intros E. right. split; [|assumption].
           destruct (v_table_sound s I k' id E) as (x & Hx & <- & _). pose proof (v_ids s I x Hx). lia.
      * intros t' id [[= <- <-]|Hw]; [rewrite Z.eqb_refl; reflexivity|]. destruct (id =? lnext s); [reflexivity|assumption].
  - destruct (find (fun c => cid c =? id) (lcalls s)) as [c|] eqn:F; [|cbn [lstep]; rewrite F; assumption].
    destruct (cdone c) eqn:D; [cbn [lstep]; rewrite F, D; assumption|].
    destruct (find_some _ _ F) as [Hc E]. apply Z.eqb_eq in E. subst id.
    destruct (lstep_finish s c oc F D) as (m' & _ & ->). cbn [fst].
    apply (linv_set_call s (mkCall (cid c) (ckey c) (crefresh c) (Some oc) (csuperseded c)
             match oc with OValue _ => correct s c | _ => false end)); cbn [cid ckey cdone csuperseded cinstalled]; try assumption.
    + intros x. apply in_upd_call; [apply (v_distinct s I)|assumption].
    + apply (v_ids s I c Hc).
    + lia.
    + intros k id. destruct (correct_spec s c) as [L|N].
      * rewrite (table_unregister s c) by assumption. intuition discriminate.
      * split; [|intuition discriminate]. intros E. right. split; [|assumption].
        intros ->. apply N. destruct (table_key s c k I Hc E) as [-> _]. assumption.
    + (* it installs only if still registered, hence unsuperseded *)
      intros Hi. split; [|discriminate]. destruct (correct_spec s c) as [L|N]; [|destruct oc; discriminate].
      apply (table_key s c _ I Hc L).
    + intros t id Hw. apply filter_In in Hw. destruct Hw as [Hw N]. cbn [snd] in N.
      destruct (id =? cid c); [discriminate|assumption].
  - apply supersede_inv. assumption.
  - apply supersede_inv. assumption.
  - apply linv_set_map. assumption.
Qed.

Theorem lrun_inv es : forall s, linv s -> linv (fst (lrun s es)).
Proof.
  induction es as [|e es IH]; intros s I; cbn [lrun]; [assumption|].
  pose proof (lstep_inv s e I) as I1. destruct (lstep s e) as [s1 o]. cbn [fst] in I1.
  specialize (IH s1 I1). destruct (lrun s1 es) as [s2 os]. assumption.
Qed.

Corollary linv_reachable es : linv (fst (lrun lstate0 es)).
Proof. apply lrun_inv, linv_init. Qed.

(* C08: two loader intervals for one key never overlap unless the older call was superseded by a
   write / invalidation / eviction of the key *)
Theorem no_overlap s c1 c2 :
  linv s -> In c1 (lcalls s) -> In c2 (lcalls s) -> cdone c1 = None -> cdone c2 = None -> ckey c1 = ckey c2 -> c1 <> c2 ->
  csuperseded c1 = true \/ csuperseded c2 = true.
Proof.
  intros I H1 H2 P1 P2 K Hne.
  destruct (csuperseded c1) eqn:S1; [left; reflexivity|]. destruct (csuperseded c2) eqn:S2; [right; reflexivity|].
  exfalso. apply Hne. apply (v_distinct s I); try assumption.
  pose proof (v_table_complete s I c1 H1 P1 S1) as L1. pose proof (v_table_complete s I c2 H2 P2 S2) as L2. congruence.
Qed.

(* C08: when no load is in flight the calls table is empty *)
Theorem table_clean s : linv s -> (forall c, In c (lcalls s) -> cdone c <> None) -> ltable s = [].
Proof.
  intros I H. destruct (ltable s) as [|[k id] tl] eqn:E; [reflexivity|].
  exfalso. destruct (v_table_sound s I k id) as (c & Hc & _ & _ & P & _); [|apply (H c Hc P)].
  rewrite E. simpl. rewrite Z.eqb_refl. reflexivity.
Qed.

(* C08: every waiter waits for a pending call, and the call's finish releases it *)
Theorem finish_releases s id oc t :
  linv s -> In (t, id) (lwaits s) ->
  match snd (lstep s (LFinish id oc)) with
  | ObsFinished _ released => In t released
  | _ => False
  end.
Proof.
  intros I Hw. destruct (v_waiters s I t id Hw) as (c & Hc & <- & P).
  destruct (lstep_finish s c oc (find_call s c I Hc) P) as (m' & _ & ->). cbn [snd].
  apply in_map_iff. exists (t, cid c). split; [reflexivity|]. apply filter_In. split; [assumption|apply Z.eqb_refl].
Qed.

(* C09: the finish of a superseded call leaves the main map alone *)
Theorem superseded_finish_keeps_map s id oc c :
  linv s -> In c (lcalls s) -> cid c = id -> cdone c = None -> csuperseded c = true ->
  lmap (fst (lstep s (LFinish id oc))) = lmap s.
Proof.
  intros I Hc <- P S. destruct (lstep_finish s c oc (find_call s c I Hc) P) as (m' & Hm & ->). cbn [fst lmap].
  apply Hm. destruct (correct_spec s c) as [L|]; [|reflexivity].
  destruct (table_key s c _ I Hc L) as (_ & _ & S'). congruence.
Qed.
