(* What the chunked queue model (Mpsc.v) is measured against (C16): a FIFO list of capacity
   roundup32(maximum) and the runs of complete pushes and pops compared with it; with the arithmetic
   of masks, offsets and buffer capacities, and the window of indices that one buffer holds.
   The refinement is proved in MpscConc.v, where a push may be interrupted between its reservation
   and its store; a complete push is one that is not. *)
From Otter Require Import Base Sketch SketchProofs Mpsc.
From Coq Require Import ZifyBool ZifyNat.
Local Open Scope Z_scope.

Definition mask_of (k : Z) : Z := 2 * (2 ^ k - 1).

Lemma pow2_pos k : 0 <= k -> 0 < 2 ^ k.
Proof. intros H. apply Z.pow_pos_nonneg; lia. Qed.

Lemma pow2_succ k : 0 <= k -> 2 ^ (k + 1) = 2 * 2 ^ k.
Proof. intros H. rewrite Z.pow_add_r by lia. change (2 ^ 1) with 2. lia. Qed.

Lemma offset_of_half a k : 0 <= a -> 0 <= k -> offset_of (2 * a) (mask_of k) = Z.to_nat (a mod 2 ^ k).
Proof.
  intros Ha Hk. unfold offset_of, mask_of. f_equal.
  replace (2 * a) with (Z.shiftl a 1) by (rewrite Z.shiftl_mul_pow2 by lia; change (2 ^ 1) with 2; lia).
  replace (2 * (2 ^ k - 1)) with (Z.shiftl (Z.ones k) 1)
    by (rewrite Z.shiftl_mul_pow2 by lia; rewrite Z.ones_equiv; change (2 ^ 1) with 2; lia).
  rewrite <- Z.shiftl_land. rewrite Z.shiftr_shiftl_l by lia. replace (1 - 1) with 0 by lia.
  rewrite Z.shiftl_0_r. apply Z.land_ones. assumption.
Qed.

Lemma next_array_offset_half k : 0 <= k -> next_array_offset (mask_of k) = Z.to_nat (2 ^ k).
Proof.
  intros Hk. unfold next_array_offset, mask_of. f_equal.
  replace (2 * (2 ^ k - 1) + 2) with (2 ^ k * 2) by lia.
  rewrite Z.shiftr_div_pow2 by lia. change (2 ^ 1) with 2. apply Z.div_mul. lia.
Qed.

Lemma mask_of_len k : 0 <= k -> Z.shiftl (2 ^ k + 1 - 2) 1 = mask_of k.
Proof. intros Hk. rewrite Z.shiftl_mul_pow2 by lia. change (2 ^ 1) with 2. unfold mask_of. lia. Qed.

Lemma mod_window_inj n lo a a' :
  0 < n -> lo <= a < lo + n -> lo <= a' < lo + n -> a mod n = a' mod n -> a = a'.
Proof.
  intros Hn Ha Ha' E.
  pose proof (Z.div_mod a n ltac:(lia)) as D. pose proof (Z.div_mod a' n ltac:(lia)) as D'.
  rewrite E in D.
  assert (a - a' = n * (a / n - a' / n)) by lia.
  assert (a / n - a' / n = 0) by nia. lia.
Qed.

Lemma mod_lt_nat a n : 0 < n -> (Z.to_nat (a mod n) < Z.to_nat n)%nat.
Proof. intros Hn. pose proof (Z.mod_pos_bound a n Hn). lia. Qed.

(* the contents of one buffer: a window of 2^k consecutive (half) indices starting at [lo] *)

Definition zlen (l : list Z) : Z := Z.of_nat (length l).

Definition want (lo : Z) (items : list Z) (jump : bool) (a : Z) : slot :=
  if a <? lo + zlen items then SElem (nth (Z.to_nat (a - lo)) items 0)
  else if jump && (a =? lo + zlen items) then SJump else SNil.

Definition bufok (bs : list slot) (k lo : Z) (items : list Z) (jump : bool) (link : slot) : Prop :=
  0 <= k /\ Z.of_nat (length bs) = 2 ^ k + 1 /\
  nth (Z.to_nat (2 ^ k)) bs SNil = link /\
  zlen items + (if jump then 1 else 0) <= 2 ^ k /\
  forall a, lo <= a < lo + 2 ^ k -> nth (Z.to_nat (a mod 2 ^ k)) bs SNil = want lo items jump a.

(* the link slot lies outside the window *)
Lemma bufok_relink bs k lo items jump link lk :
  bufok bs k lo items jump link -> bufok (upd (Z.to_nat (2 ^ k)) lk bs) k lo items jump lk.
Proof.
  intros (Hk & Hlen & Hlink & Hfit & Hw). pose proof (pow2_pos k Hk) as Hp.
  split; [assumption|]. split; [rewrite upd_length; assumption|].
  split; [apply nth_upd_same; lia|]. split; [assumption|].
  intros a Ha. pose proof (Z.mod_pos_bound a (2 ^ k) Hp). rewrite nth_upd_other by lia. apply Hw; assumption.
Qed.

Lemma zlen_nonneg (l : list Z) : 0 <= zlen l.
Proof. unfold zlen. lia. Qed.

Lemma zlen_app (l1 l2 : list Z) : zlen (l1 ++ l2) = zlen l1 + zlen l2.
Proof. unfold zlen. rewrite app_length. lia. Qed.

Lemma concat_snoc {A} (front : list (list A)) (sl : list A) x :
  concat (front ++ [sl ++ [x]]) = concat (front ++ [sl]) ++ [x].
Proof. rewrite !concat_app. cbn [concat]. rewrite !app_nil_r. apply app_assoc. Qed.

Lemma concat_snoc2 {A} (front : list (list A)) (sl : list A) x :
  concat (front ++ [sl; [x]]) = concat (front ++ [sl]) ++ [x].
Proof. rewrite !concat_app. cbn [concat]. rewrite !app_nil_r. apply app_assoc. Qed.

Definition cap (q : mpsc) (k : Z) : Z := cur_buf_capacity q (mask_of k).

Lemma cap_cases q K k : maxcap q = 2 * 2 ^ K -> 0 <= k <= K ->
  (k = K /\ cap q k = 2 * 2 ^ K) \/ (k < K /\ cap q k = mask_of k /\ 2 * 2 ^ k <= 2 ^ K).
Proof.
  intros Hm Hk. unfold cap, cur_buf_capacity, mask_of. rewrite Hm.
  destruct (2 * (2 ^ k - 1) + 2 =? 2 * 2 ^ K) eqn:E.
  - left. split; [|reflexivity]. assert (2 ^ k = 2 ^ K) by lia. apply (Z.pow_inj_r 2); lia.
  - right. assert (k <> K) by (intros ->; lia). split; [lia|]. split; [reflexivity|].
    rewrite <- pow2_succ by lia. apply Z.pow_le_mono_r; lia.
Qed.

Lemma cap_even q K k : maxcap q = 2 * 2 ^ K -> 0 <= k <= K ->
  exists e, cap q k = 2 * e /\ 2 ^ k - 1 <= e <= 2 ^ k /\ cap q k <= maxcap q.
Proof.
  intros Hm Hk. pose proof (pow2_pos K ltac:(lia)).
  destruct (cap_cases q K k Hm Hk) as [(-> & ->)|(_ & -> & Hle)]; [exists (2 ^ K)|exists (2 ^ k - 1)]; unfold mask_of; lia.
Qed.

Inductive qop := QPush (v : Z) | QPop.
Inductive qout := OPushed (ok : bool) | OPopped (r : popres).

Definition qstep (q : mpsc) (o : qop) : mpsc * qout :=
  match o with
  | QPush v => let '(q', ok) := try_push q v in (q', OPushed ok)
  | QPop => let '(q', r) := try_pop q in (q', OPopped r)
  end.

Fixpoint qrun (q : mpsc) (ops : list qop) : list qout :=
  match ops with
  | [] => []
  | o :: t => let '(q', out) := qstep q o in out :: qrun q' t
  end.

Definition fstep (capacity : Z) (l : list Z) (o : qop) : list Z * qout :=
  match o with
  | QPush v => if zlen l <? capacity then (l ++ [v], OPushed true) else (l, OPushed false)
  | QPop => match l with [] => ([], OPopped PopEmpty) | v :: r => (r, OPopped (PopElem v)) end
  end.

Fixpoint frun (capacity : Z) (l : list Z) (ops : list qop) : list qout :=
  match ops with
  | [] => []
  | o :: t => let '(l', out) := fstep capacity l o in out :: frun capacity l' t
  end.

Lemma push_maxcap q v : maxcap (fst (try_push q v)) = maxcap q.
Proof.
  unfold try_push, push_reserve.
  destruct (plimit q <=? pidx q); [|reflexivity].
  destruct (cidx q + cur_buf_capacity q (pmask q) >? pidx q); [reflexivity|].
  destruct (maxcap q - (pidx q - cidx q) <=? 0); reflexivity.
Qed.

Lemma pop_maxcap q : maxcap (fst (try_pop q)) = maxcap q.
Proof.
  unfold try_pop. destruct (buf_get q (cbuf q) (offset_of (cidx q) (cmask q))) as [|v| |b]; try reflexivity.
  - destruct (cidx q =? pidx q); reflexivity.
  - destruct (buf_get q (cbuf q) (next_array_offset (cmask q))) as [|?| |nb]; try reflexivity.
    destruct (buf_get _ nb _); reflexivity.
Qed.

Definition qstate (q : mpsc) (ops : list qop) : mpsc := fold_left (fun q o => fst (qstep q o)) ops q.
