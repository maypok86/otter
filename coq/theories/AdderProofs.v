(* AdderProofs.v — the striped counter for all schedules, any number of threads, every choice of probe
   indices.  astep is put in rule form once (astep_rule); every step lemma is a case analysis on the rule.
   AInv: mod 2^64 the stripes sum to the deltas whose CAS succeeded, and every invoked Add is applied or still
   in flight, never twice, never dropped.  MInv, for runs whose total stays below 2^64 with non-negative deltas
   (what stats.Counter does): no stripe ever decreases, so a Value() that overlaps Adds returns something
   between the sum when it began and the sum when it returned. *)
From Otter Require Import Base Adder.
Local Open Scope Z_scope.

Lemma sumZ_map_upd {A} (f : A -> Z) (d : A) t x l :
  (t < length l)%nat -> sumZ (map f (upd t x l)) = sumZ (map f l) - f (nth t l d) + f x.
Proof.
  revert t; induction l as [|h l IH]; intros [|t] H; simpl in *; try lia.
  rewrite IH by lia. lia.
Qed.

Lemma sumZ_upd t x l : (t < length l)%nat -> sumZ (upd t x l) = sumZ l - nth t l 0 + x.
Proof.
  intros H. pose proof (sumZ_map_upd (fun z => z) 0 t x l H) as E. rewrite !map_id in E. exact E.
Qed.

Lemma Forall_repeat {A} (P : A -> Prop) x n : P x -> Forall P (repeat x n).
Proof. intros H. induction n; simpl; auto. Qed.

Lemma sumZ_map_0 {A} (f : A -> Z) l : Forall (fun x => f x = 0) l -> sumZ (map f l) = 0.
Proof. induction 1; simpl in *; lia. Qed.

Lemma nth_le_sumZ_map {A} (f : A -> Z) d l i :
  Forall (fun x => 0 <= f x) l -> f d = 0 -> 0 <= f (nth i l d) <= sumZ (map f l).
Proof.
  intros H Hd. revert i; induction H as [|h l Hh Hl IH]; intros [|i]; simpl; try lia.
  - specialize (IH 0%nat). lia.
  - specialize (IH i). lia.
Qed.

Lemma nth_le_sumZ l i : Forall (fun z => 0 <= z) l -> 0 <= nth i l 0 <= sumZ l.
Proof.
  intros H. pose proof (nth_le_sumZ_map (fun z => z) 0 l i H eq_refl) as E. rewrite map_id in E. exact E.
Qed.

Lemma sumZ_firstn_le l i : Forall (fun z => 0 <= z) l -> sumZ (firstn i l) <= sumZ l.
Proof.
  intros H. rewrite <- (firstn_skipn i l) in H |- * at 2. apply Forall_app in H.
  rewrite sumZ_app. pose proof (nth_le_sumZ _ 0 (proj2 H)). lia.
Qed.

Lemma firstn_S_sum l i : (i < length l)%nat -> sumZ (firstn (S i) l) = sumZ (firstn i l) + nth i l 0.
Proof. intros H. rewrite (firstn_S_nth 0), sumZ_app by exact H. simpl. lia. Qed.

Lemma deltas_app a b : deltas (a ++ b) = deltas a ++ deltas b.
Proof. apply map_app. Qed.

(* what a successful CAS  c -> wrapu (c + d)  on one stripe does to the sum of the stripes, mod 2^64 *)
Lemma wrapu_cas s p c d : wrapu s = wrapu p -> wrapu (s - c + wrapu (c + d)) = wrapu (p + d).
Proof.
  intros H. rewrite wrapu_add_r. replace (s - c + (c + d)) with (s + d) by lia.
  rewrite <- wrapu_add_l, H, wrapu_add_l. reflexivity.
Qed.

(* a step that touches nothing shared: thread state, input, next thread state; cs are the stripes *)
Inductive tmove (cs : list Z) : athread -> ainp -> athread -> Prop :=
| m_scan th : is_running th = false -> tmove cs th IScan (TScan 0 0 cs)
| m_load f d i : tmove cs (TLoad d i) (IGo f) (TCas d i (nth i cs 0))
| m_retry f d i c : tmove cs (TCas d i c) (IGo f) (TLoad d (f mod length cs))
| m_next f i acc st : (i < length cs)%nat ->
    tmove cs (TScan i acc st) (IGo f) (TScan (S i) (wrapu (acc + nth i cs 0)) st)
| m_ret f i acc st : (length cs <= i)%nat -> tmove cs (TScan i acc st) (IGo f) (TVal acc st).

(* a step of thread t that changes anything: such a move, the invocation of Add, or a CAS that succeeds *)
Inductive arule (a : adder) (t : nat) : ainp -> adder -> Prop :=
| ar_move x y : tmove (cells a) (nth t (aths a) TIdle) x y -> arule a t x (set_th a t y)
| ar_add d i : is_running (nth t (aths a) TIdle) = false ->
    arule a t (IAdd d i)
      (mkAdder (cells a) (upd t (TLoad d (i mod length (cells a))) (aths a)) (started a ++ [(t, d)]) (applied a))
| ar_cas f d i : nth t (aths a) TIdle = TCas d i (nth i (cells a) 0) ->
    arule a t (IGo f)
      (mkAdder (upd i (wrapu (nth i (cells a) 0 + d)) (cells a)) (upd t (TDone d) (aths a)) (started a)
               (applied a ++ [(t, d)])).

Lemma astep_rule a t x :
  astep a (t, x) = a \/ ((t < length (aths a))%nat /\ arule a t x (astep a (t, x))).
Proof.
  unfold astep. destruct (Nat.ltb_spec t (length (aths a))) as [Lt|]; cbn [negb]; [|left; reflexivity].
  destruct x as [d i| |f].
  - destruct (is_running _) eqn:Er; [left; reflexivity|right; split; [exact Lt|apply ar_add, Er]].
  - destruct (is_running _) eqn:Er; [left; reflexivity|right; split; [exact Lt|apply ar_move, m_scan, Er]].
  - destruct (nth t (aths a) TIdle) as [|d i|d i c|d|i acc st|v st] eqn:E; try (left; reflexivity);
      right; split; try exact Lt.
    + apply ar_move. rewrite E. apply m_load.
    + destruct (Z.eqb_spec (nth i (cells a) 0) c) as [<-|]; [apply ar_cas, E|apply ar_move; rewrite E; apply m_retry].
    + destruct (Nat.ltb_spec i (length (cells a))); apply ar_move; rewrite E; [apply m_next|apply m_ret]; assumption.
Qed.

Lemma pending_sum_upd t x l : (t < length l)%nat ->
  pending_sum (upd t x l) = pending_sum l - pending_delta (nth t l TIdle) + pending_delta x.
Proof. apply sumZ_map_upd. Qed.

Lemma pending_cnt_upd t x l : (t < length l)%nat ->
  pending_cnt (upd t x l) = pending_cnt l - pending_one (nth t l TIdle) + pending_one x.
Proof. apply sumZ_map_upd. Qed.

Lemma not_running_pending x : is_running x = false -> pending_delta x = 0 /\ pending_one x = 0.
Proof. destruct x; simpl; intros H; try discriminate; auto. Qed.

Definition th_ok (n : nat) (x : athread) : Prop :=
  match x with
  | TLoad _ i | TCas _ i _ => (i < n)%nat
  | _ => True
  end.

Record AInv (a : adder) : Prop := {
  ai_n : (0 < length (cells a))%nat;
  ai_rng : Forall in_u64 (cells a);
  ai_sum : wrapu (sumZ (cells a)) = wrapu (sumZ (deltas (applied a)));
  ai_acc : sumZ (deltas (started a)) = sumZ (deltas (applied a)) + pending_sum (aths a);
  ai_cnt : Z.of_nat (length (started a)) = Z.of_nat (length (applied a)) + pending_cnt (aths a);
  ai_ths : Forall (th_ok (length (cells a))) (aths a)
}.

Lemma adder_init_inv n k : (0 < n)%nat -> AInv (adder_init n k).
Proof.
  intros Hn. constructor; simpl.
  - rewrite repeat_length. exact Hn.
  - apply Forall_repeat. unfold in_u64, two64. lia.
  - rewrite <- (map_id (repeat 0 n)), sumZ_map_0; [reflexivity|apply Forall_repeat; reflexivity].
  - symmetry. apply sumZ_map_0, Forall_repeat. reflexivity.
  - symmetry. apply sumZ_map_0, Forall_repeat. reflexivity.
  - apply Forall_repeat. exact I.
Qed.

Lemma tmove_frame cs th x y : tmove cs th x y ->
  pending_delta th = pending_delta y /\ pending_one th = pending_one y /\
  ((0 < length cs)%nat -> th_ok (length cs) th -> th_ok (length cs) y).
Proof.
  destruct 1 as [th Er| | | |]; try (repeat split; auto; fail).
  - destruct (not_running_pending th Er) as [E1 E2]. repeat split; auto.
  - repeat split. intros Hn _. apply Nat.mod_upper_bound. lia.
Qed.

Lemma astep_inv a inp : AInv a -> AInv (astep a inp).
Proof.
  intros H. destruct inp as [t x]. destruct (astep_rule a t x) as [->|[Lt R]]; [exact H|].
  pose proof (Forall_nth_default _ _ t TIdle (ai_ths a H) I) as Hth.
  destruct H as [Hn Hr Hs Ha Hc Ht]. destruct R as [x y M|d i Er|f d i E].
  - destruct (tmove_frame _ _ _ _ M) as [E1 [E2 E3]]. constructor; simpl; auto.
    + rewrite pending_sum_upd by exact Lt. lia.
    + rewrite pending_cnt_upd by exact Lt. lia.
    + apply Forall_upd; auto.
  - destruct (not_running_pending _ Er) as [E1 E2]. constructor; simpl; auto.
    + rewrite deltas_app, sumZ_app, pending_sum_upd by exact Lt. cbn. lia.
    + rewrite app_length, pending_cnt_upd by exact Lt. cbn. lia.
    + apply Forall_upd; [exact Ht|]. apply Nat.mod_upper_bound. lia.
  - (* the CAS succeeds: the Add moves from in flight to applied, its delta into stripe i *)
    rewrite E in Hth. constructor; simpl; rewrite ?upd_length; auto.
    + apply Forall_upd; [exact Hr|apply wrapu_range].
    + rewrite sumZ_upd by exact Hth. rewrite deltas_app, sumZ_app. cbn. rewrite Z.add_0_r.
      apply wrapu_cas, Hs.
    + rewrite deltas_app, sumZ_app, pending_sum_upd by exact Lt. rewrite E. cbn. lia.
    + rewrite app_length, pending_cnt_upd by exact Lt. rewrite E. cbn. lia.
    + apply Forall_upd; [exact Ht|exact I].
Qed.

Theorem adder_inv sch a : AInv a -> AInv (arun sch a).
Proof.
  unfold arun. revert a; induction sch as [|x sch IH]; intros a H; cbn [fold_left]; [exact H|].
  apply IH, astep_inv, H.
Qed.

(* with no call in flight: the counter is the sum of every Add ever invoked, each applied once *)
Theorem AInv_quiescent a :
  AInv a -> quiescent a ->
  wrapu (sumZ (cells a)) = wrapu (sumZ (deltas (started a))) /\
  length (applied a) = length (started a) /\
  sumZ (deltas (applied a)) = sumZ (deltas (started a)).
Proof.
  intros [_ _ Hs Ha Hc _] Hq. unfold pending_sum, pending_cnt in *.
  rewrite sumZ_map_0 in Ha, Hc by (apply Forall_forall; intros x Hx; apply (not_running_pending x (Hq x Hx))).
  split; [rewrite Ha, Z.add_0_r; exact Hs|]. split; lia.
Qed.

Definition NoWrap (a : adder) : Prop :=
  Forall (fun d => 0 <= d) (deltas (started a)) /\ sumZ (deltas (started a)) < two64.

Fixpoint le_all (a b : list Z) : Prop :=
  match a, b with
  | [], [] => True
  | x :: a', y :: b' => x <= y /\ le_all a' b'
  | _, _ => False
  end.

Lemma le_all_refl l : le_all l l.
Proof. induction l; simpl; auto. split; [lia|auto]. Qed.

Lemma le_all_trans a b c : le_all a b -> le_all b c -> le_all a c.
Proof.
  revert b c; induction a as [|x a IH]; intros [|y b] [|z c] H1 H2; simpl in *; try contradiction; auto.
  destruct H1, H2. split; [lia|]. eapply IH; eauto.
Qed.

Lemma le_all_length a b : le_all a b -> length a = length b.
Proof.
  revert b; induction a as [|h a IH]; intros [|k b] H; simpl in *; try contradiction; auto.
  destruct H as [_ H]. f_equal. auto.
Qed.

Lemma le_all_firstn a b i : le_all a b -> sumZ (firstn i a) <= sumZ (firstn i b).
Proof.
  revert b i; induction a as [|h a IH]; intros [|k b] i H; simpl in *; try contradiction.
  - destruct i; simpl; lia.
  - destruct H as [H1 H2]. destruct i; simpl; [lia|]. specialize (IH b i H2). lia.
Qed.

Lemma le_all_sum a b : le_all a b -> sumZ a <= sumZ b.
Proof.
  intros H. rewrite <- (firstn_all a), <- (firstn_all b), <- (le_all_length a b H). apply le_all_firstn, H.
Qed.

Lemma le_all_nth a b i : le_all a b -> nth i a 0 <= nth i b 0.
Proof.
  revert b i; induction a as [|h a IH]; intros [|k b] [|i] H; simpl in *; try contradiction; try lia.
  apply IH, H.
Qed.

Lemma le_all_upd l i x : nth i l 0 <= x -> le_all l (upd i x l).
Proof.
  revert i; induction l as [|h l IH]; intros [|i] H; simpl in *; auto.
  - split; [exact H|apply le_all_refl].
  - split; [lia|apply IH, H].
Qed.

(* what a run that has not wrapped guarantees about thread x, the stripes being cs: a scan's ghost is
   below the stripes, and its accumulator lies between the two prefix sums *)
Definition mth_ok (cs : list Z) (x : athread) : Prop :=
  0 <= pending_delta x /\
  match x with
  | TScan i acc st => le_all st cs /\ 0 <= acc /\ sumZ (firstn i st) <= acc <= sumZ (firstn i cs)
  | TVal v st => le_all st cs /\ sumZ st <= v <= sumZ cs
  | _ => True
  end.

Record MInv (a : adder) : Prop := {
  mi_inv : AInv a;
  mi_sum : sumZ (cells a) = sumZ (deltas (applied a));
  mi_ths : Forall (mth_ok (cells a)) (aths a)
}.

Lemma mth_ok_idle cs : mth_ok cs TIdle.
Proof. split; [apply Z.le_refl|exact I]. Qed.

Lemma mth_ok_mono cs cs' x : le_all cs cs' -> mth_ok cs x -> mth_ok cs' x.
Proof.
  intros Hle [H0 H]. split; [exact H0|]. destruct x as [| | | |i acc st|v st]; auto.
  - destruct H as [H1 H2]. pose proof (le_all_firstn _ _ i Hle). split; [eapply le_all_trans; eauto|lia].
  - destruct H as [H1 H2]. pose proof (le_all_sum _ _ Hle). split; [eapply le_all_trans; eauto|lia].
Qed.

(* a scan does not wrap: acc + stripe i is at most the prefix sum of S i stripes *)
Lemma tmove_mth_ok cs th x y :
  Forall (fun z => 0 <= z) cs -> sumZ cs < two64 -> tmove cs th x y -> mth_ok cs th -> mth_ok cs y.
Proof.
  intros Hp Hb M [Hd H]. split; [rewrite <- (proj1 (tmove_frame _ _ _ _ M)); exact Hd|].
  destruct M as [th Er|f d i|f d i c|f i acc st Hi|f i acc st Hi]; auto.
  - repeat split; try apply Z.le_refl. apply le_all_refl.
  - destruct H as [H1 [H2 H3]]. split; [exact H1|].
    pose proof (le_all_length _ _ H1) as El. pose proof (le_all_nth _ _ i H1) as Hn.
    pose proof (sumZ_firstn_le _ (S i) Hp) as Hup. pose proof (nth_le_sumZ _ i Hp) as Hc0.
    rewrite (firstn_S_sum st), (firstn_S_sum cs) in * by lia.
    rewrite wrapu_id by (unfold in_u64; lia). lia.
  - destruct H as [H1 [_ H3]]. split; [exact H1|].
    rewrite !firstn_all2 in H3 by (rewrite ?(le_all_length _ _ H1); exact Hi). exact H3.
Qed.

Lemma MInv_nth a t : MInv a -> mth_ok (cells a) (nth t (aths a) TIdle).
Proof. intros H. apply Forall_nth_default; [apply H|apply mth_ok_idle]. Qed.

Lemma adder_init_minv n k : (0 < n)%nat -> MInv (adder_init n k).
Proof.
  intros Hn. constructor; [apply adder_init_inv, Hn| |apply Forall_repeat, mth_ok_idle].
  simpl. rewrite <- (map_id (repeat 0 n)), sumZ_map_0; [reflexivity|apply Forall_repeat; reflexivity].
Qed.

Lemma NoWrap_snoc a cs ths ap t d : NoWrap (mkAdder cs ths (started a ++ [(t, d)]) ap) -> NoWrap a /\ 0 <= d.
Proof.
  unfold NoWrap. cbn. rewrite deltas_app, sumZ_app. cbn.
  intros [H1 H2]. apply Forall_app in H1. destruct H1 as [H1 H1']. inversion H1'; subst. repeat split; [exact H1|lia..].
Qed.

Lemma NoWrap_step a inp : NoWrap (astep a inp) -> NoWrap a.
Proof.
  destruct inp as [t x]. destruct (astep_rule a t x) as [->|[_ []]]; auto. intros HN. apply (NoWrap_snoc _ _ _ _ _ _ HN).
Qed.

Lemma NoWrap_run sch a : NoWrap (arun sch a) -> NoWrap a.
Proof.
  revert a; induction sch as [|x sch IH]; intros a H; [exact H|]. eapply NoWrap_step, IH, H.
Qed.

(* what NoWrap buys: the Add of thread t, if one is in flight, fits on top of the stripes *)
Lemma budget a t : MInv a -> NoWrap a ->
  Forall (fun z => 0 <= z) (cells a) /\
  0 <= pending_delta (nth t (aths a) TIdle) /\ sumZ (cells a) + pending_delta (nth t (aths a) TIdle) < two64.
Proof.
  intros [HA Hs Hm] [_ HN]. pose proof (ai_acc a HA) as Ha.
  pose proof (nth_le_sumZ_map pending_delta TIdle (aths a) t (Forall_impl _ (fun x H => proj1 H) Hm) eq_refl) as Hd.
  fold (pending_sum (aths a)) in Hd.
  split; [|lia]. eapply Forall_impl; [|exact (ai_rng a HA)]. intros z H. apply H.
Qed.

Lemma MInv_upd a a' t y :
  MInv a -> AInv a' -> le_all (cells a) (cells a') -> sumZ (cells a') = sumZ (deltas (applied a')) ->
  aths a' = upd t y (aths a) -> mth_ok (cells a') y -> MInv a' /\ le_all (cells a) (cells a').
Proof.
  intros [_ _ Hm] HA Hle Hs E Hy. split; [|exact Hle]. constructor; [exact HA|exact Hs|].
  rewrite E. apply Forall_upd; [|exact Hy]. eapply Forall_impl; [|exact Hm]. intros z. apply mth_ok_mono, Hle.
Qed.

Lemma astep_minv a inp : MInv a -> NoWrap (astep a inp) -> MInv (astep a inp) /\ le_all (cells a) (cells (astep a inp)).
Proof.
  intros HM HN. pose proof (astep_inv a inp (mi_inv a HM)) as HA'. destruct inp as [t x].
  destruct (budget a t HM (NoWrap_step _ _ HN)) as [Hp [Hd Hb]].
  destruct (astep_rule a t x) as [E|[Lt R]]; [rewrite E; split; [exact HM|apply le_all_refl]|].
  destruct R as [x y M|d i Er|f d i E].
  - apply (MInv_upd a _ t y HM HA' (le_all_refl _) (mi_sum a HM) eq_refl).
    apply (tmove_mth_ok _ _ _ _ Hp ltac:(lia) M (MInv_nth a t HM)).
  - apply (MInv_upd a _ t _ HM HA' (le_all_refl _) (mi_sum a HM) eq_refl). split; [|exact I].
    apply (NoWrap_snoc _ _ _ _ _ _ HN).
  - (* c + d stays below 2^64: c <= sum of the stripes, and budget *)
    pose proof (Forall_nth_default _ _ t TIdle (ai_ths a (mi_inv a HM)) I) as Hi.
    rewrite E in *. simpl in Hd, Hb, Hi. set (c := nth i (cells a) 0) in *.
    pose proof (nth_le_sumZ _ i Hp : 0 <= c <= _) as Hc.
    assert (Ew : wrapu (c + d) = c + d) by (apply wrapu_id; unfold in_u64; lia).
    apply (MInv_upd a _ t (TDone d) HM HA'); cbn; rewrite ?Ew.
    + apply le_all_upd. fold c. lia.
    + rewrite sumZ_upd by exact Hi. fold c. rewrite deltas_app, sumZ_app, <- (mi_sum a HM). cbn. lia.
    + reflexivity.
    + split; [apply Z.le_refl|exact I].
Qed.

Theorem adder_minv sch a : MInv a -> NoWrap (arun sch a) -> MInv (arun sch a) /\ le_all (cells a) (cells (arun sch a)).
Proof.
  revert a; induction sch as [|x sch IH]; intros a HM HN; [split; [exact HM|apply le_all_refl]|].
  destruct (astep_minv a x HM (NoWrap_run sch _ HN)) as [HM1 L1]. destruct (IH _ HM1 HN) as [HM2 L2].
  split; [exact HM2|exact (le_all_trans _ _ _ L1 L2)].
Qed.

(* a Value() lies between the total when it was invoked (its ghost [st]) and the total when it returned *)
Theorem scan_bounds a t v st :
  MInv a -> nth t (aths a) TIdle = TVal v st -> le_all st (cells a) /\ sumZ st <= v <= sumZ (cells a).
Proof. intros H E. pose proof (MInv_nth a t H) as X. rewrite E in X. apply X. Qed.

(* the ghost really is the stripes at the invocation *)
Lemma scan_start_snapshot a t :
  (t < length (aths a))%nat -> is_running (nth t (aths a) TIdle) = false ->
  nth t (aths (astep a (t, IScan))) TIdle = TScan 0 0 (cells a).
Proof.
  intros Ht Hr. unfold astep. apply Nat.ltb_lt in Ht. rewrite Ht. cbn [negb]. rewrite Hr. cbn.
  apply nth_upd_same. apply Nat.ltb_lt. exact Ht.
Qed.

Definition no_restart (t : nat) (sch : list (nat * ainp)) : Prop :=
  Forall (fun inp => ~ (fst inp = t /\ snd inp = IScan) /\ forall d i, ~ (fst inp = t /\ snd inp = IAdd d i)) sch.

(* once the stripes have passed base, every scan that thread t is in, or begins later, has a ghost above base *)
Definition ghost_ge (base : list Z) (x : athread) : Prop :=
  match x with TScan _ _ s | TVal _ s => le_all base s | _ => True end.

Lemma arun_ghost_ge sch a t base :
  MInv a -> NoWrap (arun sch a) -> le_all base (cells a) -> ghost_ge base (nth t (aths a) TIdle) ->
  ghost_ge base (nth t (aths (arun sch a)) TIdle).
Proof.
  revert a; induction sch as [|[u x] sch IH]; intros a HM HN Hb Hg; [exact Hg|].
  destruct (astep_minv a (u, x) HM (NoWrap_run sch _ HN)) as [HM1 L1].
  apply (IH _ HM1 HN (le_all_trans _ _ _ Hb L1)). clear IH HN HM1 L1.
  destruct (astep_rule a u x) as [->|[Lu R]]; [exact Hg|].
  destruct (Nat.eq_dec u t) as [->|Hne]; [|destruct R; cbn; rewrite nth_upd_other by exact Hne; exact Hg].
  destruct R as [x y M|d i Er|f d i E]; cbn; rewrite nth_upd_same by exact Lu; try exact I.
  destruct M; try exact I; [exact Hb|exact Hg..].
Qed.

(* "counters never decrease": a Value() invoked after another Value() had returned v1 — whatever
   Adds and other scans overlap either of them, whatever its thread did in between — does not return less *)
Theorem value_never_decreases a1 sch2 sch3 t1 t2 v1 st1 v2 st2 :
  MInv a1 ->
  let a2 := arun sch2 a1 in
  let a3 := astep a2 (t2, IScan) in
  let a4 := arun sch3 a3 in
  NoWrap a4 ->
  nth t1 (aths a1) TIdle = TVal v1 st1 ->                       (* the first Value() has returned v1 *)
  (t2 < length (aths a2))%nat -> is_running (nth t2 (aths a2) TIdle) = false ->   (* the second is invoked later *)
  nth t2 (aths a4) TIdle = TVal v2 st2 ->                       (* ... and has returned v2 *)
  v1 <= v2.
Proof.
  intros M1 a2 a3 a4 HN E1 Ht2 Hr2 E2.
  pose proof (NoWrap_run sch3 a3 HN) as HN3.
  destruct (adder_minv sch2 a1 M1 (NoWrap_step _ _ HN3)) as [M2 L12]. fold a2 in M2, L12.
  destruct (astep_minv a2 (t2, IScan) M2 HN3) as [M3 L23]. fold a3 in M3, L23.
  (* v1 <= total at a1 <= total at a2 <= ghost of the second scan <= v2 *)
  pose proof (arun_ghost_ge sch3 a3 t2 (cells a2) M3 HN L23) as G. unfold a3 in G at 1.
  rewrite scan_start_snapshot in G by assumption. specialize (G (le_all_refl _)). fold a3 a4 in G.
  rewrite E2 in G.
  pose proof (scan_bounds a1 t1 v1 st1 M1 E1). pose proof (scan_bounds a4 t2 v2 st2 (proj1 (adder_minv sch3 a3 M3 HN)) E2).
  pose proof (le_all_sum _ _ L12). pose proof (le_all_sum _ _ G). lia.
Qed.

(* non-vacuity: two Adds collide on one stripe (the second CAS fails and moves on), a scan overlaps *)
Definition adder_example_run : adder :=
  arun [(0, IAdd 5 0); (1, IAdd 7 0); (0, IGo 0); (1, IGo 0); (2, IScan); (2, IGo 0); (0, IGo 0); (1, IGo 1);
        (1, IGo 0); (1, IGo 0); (2, IGo 0); (2, IGo 0)]%nat (adder_init 2 3).

Example adder_example :
  cells adder_example_run = [5; 7] /\ nth 2 (aths adder_example_run) TIdle = TVal 7 [0; 0] /\
  deltas (started adder_example_run) = [5; 7] /\
  forallb (fun x => negb (is_running x)) (aths adder_example_run) = true.
Proof. vm_compute. repeat split; reflexivity. Qed.
