(* WheelFacts.v — what the sweep of one bucket expires, and where an already-due expiration is placed. *)
From Otter Require Import Base Wheel.
From Coq Require Import ZifyBool.
Local Open Scope Z_scope.

Arguments wrapu : simpl never.

Lemma wheel_add_time w id e : wtime (wheel_add w id e) = wtime w.
Proof. unfold wheel_add. destruct (find_bucket w e) as [[l s] k]. reflexivity. Qed.

Lemma sweep_timers_spec cur ts : forall w acc,
  let '(w1, acc1) := sweep_timers cur w ts acc in
  wtime w1 = wtime w /\
  acc1 = acc ++ map tid (filter (fun t => cur (tid t) <? wtime w) ts).
Proof.
  induction ts as [|t ts IH]; intros w acc; cbn [sweep_timers].
  - cbn. rewrite app_nil_r. auto.
  - destruct (cur (tid t) <? wtime w) eqn:E.
    + specialize (IH w (acc ++ [tid t])). destruct (sweep_timers cur w ts (acc ++ [tid t])) as [w1 acc1].
      destruct IH as [T A]. split; [assumption|]. rewrite A. cbn [filter]. rewrite E. cbn [map]. rewrite <- app_assoc. reflexivity.
    + specialize (IH (wheel_add w (tid t) (cur (tid t))) acc).
      destruct (sweep_timers cur (wheel_add w (tid t) (cur (tid t))) ts acc) as [w1 acc1].
      rewrite wheel_add_time in IH. destruct IH as [T A]. split; [assumption|]. rewrite A. cbn [filter]. rewrite E. reflexivity.
Qed.

Lemma sweep_timers_expired_due cur ts w acc id :
  In id (snd (sweep_timers cur w ts acc)) -> In id acc \/ cur id < wtime w.
Proof.
  pose proof (sweep_timers_spec cur ts w acc) as H. destruct (sweep_timers cur w ts acc) as [w1 acc1].
  destruct H as [_ ->]. cbn [snd]. rewrite in_app_iff. intros [H|H]; [left; assumption|right].
  apply in_map_iff in H. destruct H as (t & <- & Ht). apply filter_In in Ht. destruct Ht as [_ Ht]. lia.
Qed.

(* the stale-clock repair: an already-due expiration goes to level 0, bucket of the wheel's current tick,
   where the next sweep that crosses a tick boundary meets it *)
Lemma find_bucket_due w e :
  0 <= wtime w < two64 -> e < wtime w ->
  find_bucket w e = (0%nat, Z.to_nat (Z.land (Z.shiftr (wtime w) 30) 63), wtime w).
Proof.
  intros Ht He. unfold find_bucket. replace (e <? wtime w) with true by lia.
  replace (wtime w - wtime w) with 0 by lia. change (wrapu 0) with 0. reflexivity.
Qed.
