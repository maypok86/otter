(* MpscFacts.v — what the chunked queue model guarantees in ANY state, without an invariant (C16);
   the FIFO refinement is in MpscConc.v. *)
From Otter Require Import Base Sketch Mpsc.
From Coq Require Import ZifyBool.
Local Open Scope Z_scope.

Lemma refuse_only_when_full q v q' :
  push_reserve q v = (q', RFull) -> q' = q /\ maxcap q - (pidx q - cidx q) <= 0.
Proof.
  unfold push_reserve. destruct (plimit q <=? pidx q); [|intros H; discriminate H].
  destruct (cidx q + cur_buf_capacity q (pmask q) >? pidx q); [intros H; discriminate H|].
  destruct (maxcap q - (pidx q - cidx q) <=? 0) eqn:E; [|intros H; discriminate H].
  intros H. injection H as <-. split; [reflexivity|lia].
Qed.

Lemma pop_empty_only_when_caught_up q q' : try_pop q = (q', PopEmpty) -> cidx q = pidx q.
Proof.
  unfold try_pop. destruct (buf_get q (cbuf q) (offset_of (cidx q) (cmask q))) as [|v| |b].
  - destruct (cidx q =? pidx q) eqn:E; [intros _; lia|intros H; discriminate H].
  - intros H; discriminate H.
  - destruct (buf_get q (cbuf q) (next_array_offset (cmask q))) as [|?| |nb]; try (intros H; discriminate H).
    destruct (buf_get _ nb _); intros H; discriminate H.
  - intros H; discriminate H.
Qed.

Lemma pop_waits_for_reserved_slot q :
  buf_get q (cbuf q) (offset_of (cidx q) (cmask q)) = SNil -> cidx q <> pidx q -> try_pop q = (q, PopWait).
Proof.
  intros H Hne. unfold try_pop. rewrite H. replace (cidx q =? pidx q) with false by lia. reflexivity.
Qed.

Lemma pop_returns_stored q q' v :
  try_pop q = (q', PopElem v) ->
  buf_get q (cbuf q) (offset_of (cidx q) (cmask q)) = SElem v \/
  buf_get q (cbuf q) (offset_of (cidx q) (cmask q)) = SJump.
Proof.
  unfold try_pop. destruct (buf_get q (cbuf q) (offset_of (cidx q) (cmask q))) as [|w| |b].
  - destruct (cidx q =? pidx q); intros H; discriminate H.
  - intros H. injection H as _ <-. left; reflexivity.
  - intros _. right; reflexivity.
  - intros H; discriminate H.
Qed.

Lemma pop_index q q' r : try_pop q = (q', r) ->
  cidx q' = (match r with PopElem _ => cidx q + 2 | _ => cidx q end) /\ pidx q' = pidx q.
Proof.
  unfold try_pop. destruct (buf_get q (cbuf q) (offset_of (cidx q) (cmask q))) as [|w| |b].
  - destruct (cidx q =? pidx q); intros H; injection H as <- <-; auto.
  - intros H; injection H as <- <-. auto.
  - destruct (buf_get q (cbuf q) (next_array_offset (cmask q))) as [|?| |nb]; try (intros H; injection H as <- <-; auto).
    destruct (buf_get _ nb _); intros H; injection H as <- <-; auto.
  - intros H; injection H as <- <-; auto.
Qed.
