(* PolicyFacts.v — what one iteration of evictFromMain does (to the total, the evicted node and both cursors),
   and facts about eviction that need no invariant: weights never change, oversized nodes never enter a queue. *)
From Otter Require Import Base Sketch Policy.
From Coq Require Import ZifyBool.
Local Open Scope Z_scope.

(* the candidate cursor once the admission window has been searched (the first thing an iteration does) *)
Definition eff_cand (p : policy) (cu : cursors) : option Z * Z :=
  match c_cand cu with
  | None => if c_cq cu =? QPROBATION then (dq_head (qwin p), QWINDOW) else (None, c_cq cu)
  | Some c => (Some c, c_cq cu)
  end.

(* the one case analysis of ef_step: everything later proofs need of an iteration is read off this *)
Lemma ef_step_spec hashf rnd p cu :
  let cand := fst (eff_cand p cu) in
  match ef_step hashf rnd p cu with
  | EfStop => wsize p <= maxi p \/ (c_victim cu = None /\ cand = None /\ c_vq cu <> QPROBATION /\ c_vq cu <> QPROTECTED)
  | EfSkip cu' =>
      c_cq cu' = snd (eff_cand p cu) /\
      ((c_victim cu = None /\ cand = None /\ c_cand cu' = None /\
        ((c_vq cu = QPROBATION /\ c_victim cu' = dq_head (qprot p) /\ c_vq cu' = QPROTECTED) \/
         (c_vq cu = QPROTECTED /\ c_victim cu' = dq_head (qwin p) /\ c_vq cu' = QWINDOW)))
       \/ (c_vq cu' = c_vq cu /\ c_cand cu' = cand /\
           exists v, c_victim cu = Some v /\ pweight (node_of p v) = 0 /\ c_victim cu' = next_in p v)
       \/ (c_vq cu' = c_vq cu /\ c_victim cu' = c_victim cu /\ exists c, cand = Some c /\ c_cand cu' = next_in p c))
  | EfEvict id cu' =>
      wsize p > maxi p /\ pweight (node_of p id) <> 0 /\ c_vq cu' = c_vq cu /\ c_cq cu' = snd (eff_cand p cu) /\
      ((c_victim cu = Some id /\ c_victim cu' = next_in p id /\
        (c_cand cu' = cand \/ exists c, cand = Some c /\ (c_cand cu' = next_in p c \/ c_cand cu' = None)))
       \/ (c_victim cu' = c_victim cu /\ c_victim cu <> Some id /\ cand = Some id /\ c_cand cu' = next_in p id))
  end.
Proof.
  unfold ef_step, eff_cand. destruct (negb (wsize p >? maxi p)) eqn:Eg; [left; lia|].
  assert (Hgt : wsize p > maxi p) by lia. clear Eg.
  destruct (match c_cand cu with Some c => _ | None => _ end) as [cand cq]. cbn [fst snd].
  destruct cand as [c|]; destruct (c_victim cu) as [v|].
  - destruct (pweight (node_of p v) =? 0) eqn:Evz.
    { split; [reflexivity|]. right; left. repeat split. exists v. repeat split. lia. }
    destruct (pweight (node_of p c) =? 0) eqn:Ecz.
    { split; [reflexivity|]. right; right. repeat split. exists c. split; reflexivity. }
    assert (Nv : pweight (node_of p v) <> 0) by lia. assert (Nc : pweight (node_of p c) <> 0) by lia.
    destruct (c =? v) eqn:Ecv.
    { assert (c = v) by lia. subst c. cbn [c_vq c_victim c_cand c_cq]. repeat split; auto. left. eauto 7. }
    assert (Hcv : Some v <> Some c) by (intros H; injection H as ->; lia).
    destruct (negb (pstate (node_of p v) =? ALIVE)); [|destruct (negb (pstate (node_of p c) =? ALIVE));
      [|destruct (pweight (node_of p c) >? maxi p); [|destruct (accept _ _ _ _)]]];
      cbn [c_vq c_victim c_cand c_cq]; (split; [exact Hgt|]); (split; [assumption|]); (split; [reflexivity|]); (split; [reflexivity|]);
      [left|right|right|left|right]; repeat split; try assumption; [left; reflexivity|right; exists c; split; [|left]; reflexivity].
  - destruct (pweight (node_of p c) =? 0) eqn:Ecz.
    { split; [reflexivity|]. right; right. repeat split. exists c. split; reflexivity. }
    cbn [c_vq c_victim c_cand c_cq]. repeat split; try lia. right. repeat split. discriminate.
  - destruct (pweight (node_of p v) =? 0) eqn:Evz.
    { split; [reflexivity|]. right; left. repeat split. exists v. repeat split. lia. }
    cbn [c_vq c_victim c_cand c_cq]. repeat split; try lia. left. repeat split. left. reflexivity.
  - destruct (c_vq cu =? QPROBATION) eqn:E1; [split; [reflexivity|]; left; repeat split; left; repeat split; lia|].
    destruct (c_vq cu =? QPROTECTED) eqn:E2; [split; [reflexivity|]; left; repeat split; right; repeat split; lia|].
    right. repeat split; lia.
Qed.

Lemma ef_step_evict hashf rnd p cu id cu' :
  ef_step hashf rnd p cu = EfEvict id cu' -> pweight (node_of p id) <> 0 /\ wsize p > maxi p.
Proof. intros E. pose proof (ef_step_spec hashf rnd p cu) as H. rewrite E in H. split; apply H. Qed.

Lemma ef_step_stop hashf rnd p cu :
  ef_step hashf rnd p cu = EfStop -> wsize p <= maxi p \/ (c_victim cu = None /\ c_cand cu = None).
Proof.
  intros E. pose proof (ef_step_spec hashf rnd p cu) as H. rewrite E in H. cbv zeta in H.
  destruct H as [H|(Hv & Hc & _)]; [left; exact H|right]. split; [exact Hv|].
  unfold eff_cand in Hc. destruct (c_cand cu); [discriminate Hc|reflexivity].
Qed.

Lemma sget_sset st i n y : sget (sset st i n) y = if y =? i then Some n else sget st y.
Proof.
  induction st as [|[j m] st IH]; cbn [sset sget]; [rewrite (Z.eqb_sym i y); reflexivity|].
  destruct (j =? i) eqn:Eji; cbn [sget]; [|rewrite IH]; destruct (j =? y) eqn:Ejy; destruct (y =? i) eqn:Eyi; try reflexivity; lia.
Qed.

Lemma sget_sset_same st id n : sget (sset st id n) id = Some n.
Proof. rewrite sget_sset, Z.eqb_refl. reflexivity. Qed.

Lemma sget_sset_other st id id' n : id' <> id -> sget (sset st id n) id' = sget st id'.
Proof. intros N. rewrite sget_sset. apply Z.eqb_neq in N. rewrite N. reflexivity. Qed.

Lemma node_of_set_node p i n y : node_of (set_node p i n) y = if y =? i then n else node_of p y.
Proof. unfold node_of, set_node, with_store. cbn [store]. rewrite sget_sset. destruct (y =? i); reflexivity. Qed.

Lemma make_dead_weight p i y : pweight (node_of (make_dead p i) y) = pweight (node_of p y).
Proof.
  unfold make_dead. destruct (pstate (node_of p i) =? DEAD); [reflexivity|].
  unfold set_state_of. rewrite node_of_set_node. destruct (y =? i) eqn:E; [|reflexivity].
  apply Z.eqb_eq in E. subst y. reflexivity.
Qed.

Lemma pol_evict_weight p id x : pweight (node_of (pol_evict p id) x) = pweight (node_of p x).
Proof.
  unfold pol_evict, pol_delete. rewrite !make_dead_weight.
  unfold set_queue. destruct (own_queue p id =? QWINDOW); [reflexivity|]. destruct (own_queue p id =? QPROBATION); reflexivity.
Qed.

(* non-zero when evicted; weights never change, so non-zero in the final state *)
Lemma evict_from_main_nonzero fuel hashf rnd : forall p cu acc,
  (forall id, In id acc -> pweight (node_of p id) <> 0) ->
  let '(p1, acc1) := evict_from_main fuel hashf rnd p cu acc in
  forall id, In id acc1 -> pweight (node_of p1 id) <> 0.
Proof.
  induction fuel as [|f IH]; intros p cu acc Hacc; cbn [evict_from_main]; [assumption|].
  destruct (ef_step hashf rnd p cu) as [|cu'|id cu'] eqn:Es.
  - assumption.
  - apply IH. assumption.
  - apply IH. intros x Hx. rewrite pol_evict_weight. apply in_app_iff in Hx. destruct Hx as [Hx|[<-|[]]].
    + apply Hacc. assumption.
    + apply (ef_step_evict _ _ _ _ _ _ Es).
Qed.

Lemma pol_add_oversized hashf p id :
  pstate (node_of p id) = ALIVE -> pweight (node_of p id) > maxi p ->
  snd (pol_add hashf p id) = [id].
Proof.
  intros Ha Hw. unfold pol_add.
  set (p3 := with_sketch _ _).
  assert (E1 : pstate (node_of p id) =? ALIVE = true) by lia. rewrite E1. cbn [negb].
  assert (M : maxi p3 = maxi p).
  { unfold p3. destruct (wsize (with_sizes p _ _ _) >=? _); reflexivity. }
  rewrite M. replace (pweight (node_of p id) >? maxi p) with true by lia. reflexivity.
Qed.
