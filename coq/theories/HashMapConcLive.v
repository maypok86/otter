(* HashMapConcLive.v — no deadlock in the hash table's concurrency protocol: in every state that
   satisfies the invariant (so in every reachable state), if no step of any thread with any input
   changes the state, every thread has finished.  A thread waiting for a bucket lock is waiting for a
   holder that can move; a thread waiting for the resize is waiting for a resizer that can move (or
   that waits for such a holder).  This is a safety statement (no stuck configuration); that every
   schedule is finite is not claimed. *)
From Coq Require Import List Arith Bool ZArith Lia.
Import ListNotations.
From Otter Require Import HashMapConc HashMapConcProofs.
Local Open Scope nat_scope.

Section Live.
Variable hidx : nat -> Z -> nat.
Variable KU : list Z.

Lemma forallb_false_ex {A} (f : A -> bool) l : forallb f l = false -> exists x, In x l /\ f x = false.
Proof.
  induction l as [|h t IH]; [discriminate|]. cbn [forallb]. destruct (f h) eqn:E.
  - intros H. destruct (IH H) as (x & Hx & Hf). exists x. split; [right; exact Hx|exact Hf].
  - intros _. exists h. split; [left; reflexivity|exact E].
Qed.

Lemma moves {s i t t' ln st lk' cu rz sp hi fz cn ul} :
  nth_error (hths s) i = Some t -> t' <> t -> mkHcs ln st lk' cu rz sp hi fz cn ul (upd_nth i t' (hths s)) <> s.
Proof.
  intros Hi Hne E. apply Hne. apply (f_equal hths) in E. cbn [hths] in E.
  pose proof (nth_error_upd_nth t' (hths s) i i) as H. rewrite E, Nat.eqb_refl, Hi in H. injection H as ->. reflexivity.
Qed.

Definition finished (t : hthread) : Prop := hpc_ t = HDone \/ hpc_ t = GDone \/ hpc_ t = IDone.
Definition stuck (s : hcstate) : Prop := forall i o, hstep hidx KU s i o = s.

Lemma holder_moves s j u : nth_error (hths s) j = Some u -> pc_in (hpc_ u) [W2; W3; W4; W5] = true -> stuck s -> False.
Proof.
  intros Hj Hp St. apply (fun H => H (St j 0)). rewrite <- (set_pc_id u) in Hj. destruct (hpc_ u); try discriminate Hp; step Hj.
  - destruct (resizing s); apply (moves Hj); discriminate.
  - destruct (Nat.eqb (hcur s) (hsnap u)); apply (moves Hj); discriminate.
  - apply (moves Hj). discriminate.
  - apply (moves Hj). discriminate.
Qed.

Lemma locked_has_holder s g b : HCInv hidx s -> lk s g b = true -> stuck s -> False.
Proof.
  intros I E St. pose proof (iv_lock hidx s I g b) as Hc. rewrite E in Hc.
  destruct (hcnt_pos_ex (holder g b) (hths s)) as (j & u & Hj & Hu); [rewrite Hc; reflexivity|].
  unfold holder in Hu. apply andb_prop in Hu. destruct Hu as [Hu _]. apply andb_prop in Hu. destruct Hu as [Hu _].
  exact (holder_moves s j u Hj Hu St).
Qed.

Lemma resizer_moves s j r : HCInv hidx s -> nth_error (hths s) j = Some r -> resz r = true -> stuck s -> False.
Proof.
  intros I Hj Hr St. rewrite <- (set_pc_id r) in Hj. unfold resz in Hr. destruct (hpc_ r); try discriminate Hr.
  - (* R1 *)
    destruct (forallb (hcop r) (seq 0 (len_of s (hsnap r)))) eqn:Eall.
    + apply (fun H => H (St j 0)). step Hj. rewrite Eall. apply (moves Hj). discriminate.
    + destruct (forallb_false_ex _ _ Eall) as (b & Hb & Hc). apply in_seq in Hb.
      destruct (lk s (hsnap r) b) eqn:El; [exact (locked_has_holder s _ _ I El St)|].
      apply (fun H => H (St j b)). step Hj. rewrite Eall, (proj2 (Nat.ltb_lt _ _)), Hc, El by lia.
      apply (moves Hj). intros E. apply (f_equal (fun t => hcop t b)) in E. cbn in E. rewrite Nat.eqb_refl, Hc in E. discriminate E.
  - (* R2 *) apply (fun H => H (St j 0)). step Hj. apply (moves Hj). discriminate.
  - (* R3 *) apply (fun H => H (St j 0)). step Hj. apply (moves Hj). destruct (hretry r); discriminate.
Qed.

Lemma resizing_has_resizer s : HCInv hidx s -> resizing s = true -> stuck s -> False.
Proof.
  intros I E St. pose proof (iv_resz hidx s I) as Hc. rewrite E in Hc.
  destruct (hcnt_pos_ex resz (hths s)) as (j & r & Hj & Hr); [rewrite Hc; reflexivity|].
  exact (resizer_moves s j r I Hj Hr St).
Qed.

Theorem no_deadlock s : HCInv hidx s -> stuck s -> forall i t, nth_error (hths s) i = Some t -> finished t.
Proof.
  intros I St i t Hi. unfold finished. rewrite <- (set_pc_id t) in Hi |- *.
  assert (Mv : hstep hidx KU s i 0 <> s -> False) by (intros H; exact (H (St i 0))).
  destruct (hpc_ t); cbn; auto; exfalso.
  - (* W0 *) apply Mv. step Hi. apply (moves Hi). discriminate.
  - (* W1 *) destruct (lk s (hsnap t) (hbi t)) eqn:El; [exact (locked_has_holder s _ _ I El St)|].
    apply Mv. step Hi. rewrite El. apply (moves Hi). discriminate.
  - (* W2 *) exact (holder_moves s i _ Hi eq_refl St).
  - (* Wwait *) destruct (resizing s) eqn:Er; [exact (resizing_has_resizer s I Er St)|].
    apply Mv. step Hi. rewrite Er. apply (moves Hi). discriminate.
  - (* W3 *) exact (holder_moves s i _ Hi eq_refl St).
  - (* W4 *) exact (holder_moves s i _ Hi eq_refl St).
  - (* W5 *) exact (holder_moves s i _ Hi eq_refl St).
  - (* Wadd *) apply Mv. step Hi. apply (moves Hi). discriminate.
  - (* W6 *) apply Mv. step Hi. apply (moves Hi). discriminate.
  - (* R0 *) apply Mv. step Hi. destruct (resizing s); apply (moves Hi); discriminate.
  - (* Rwait *) destruct (resizing s) eqn:Er; [exact (resizing_has_resizer s I Er St)|].
    apply Mv. step Hi. rewrite Er. apply (moves Hi). destruct (hretry t); discriminate.
  - (* R1 *) exact (resizer_moves s i _ I Hi eq_refl St).
  - (* R2 *) exact (resizer_moves s i _ I Hi eq_refl St).
  - (* R3 *) exact (resizer_moves s i _ I Hi eq_refl St).
  - (* G0 *) apply Mv. step Hi. apply (moves Hi). discriminate.
  - (* G1 *) apply Mv. step Hi. apply (moves Hi). discriminate.
  - (* I0 *) apply Mv. step Hi. apply (moves Hi). discriminate.
  - (* I1 *) destruct (lk s (hsnap t) (hbi t)) eqn:El; [exact (locked_has_holder s _ _ I El St)|].
    apply Mv. step Hi. rewrite El. destruct (Nat.ltb (hbi t) (len_of s (hsnap t))); apply (moves Hi); [|discriminate].
    intros E. apply (f_equal hbi) in E. cbn in E. lia.
Qed.

Theorem conc_no_deadlock n0 ops sched : 1 <= n0 ->
  let s := hrun hidx KU (hinit n0 ops) sched in
  stuck s -> forall i t, nth_error (hths s) i = Some t -> finished t.
Proof. intros Hn s. apply no_deadlock. apply HCInv_run. apply HCInv_init. exact Hn. Qed.

End Live.
