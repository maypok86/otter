(* PolicyInv.v — the bookkeeping invariant of the eviction policy (Policy.v / Maint.v) over ALL
   orders in which write tasks reach the maintenance thread (C05, and the basis of C04):

   every node has a life cycle (created -> its add/update task consumed ("counted") -> retired ->
   its delete/update-as-old task consumed or evicted -> dead); tasks may be consumed in any order.
   The three wrapping weight counters are, modulo 2^64, sums over the node store with a coefficient
   [counted] - [dead] in {-1, 0, 1} per node (a node made dead before it was counted is a debt, a
   node counted while no longer alive a credit), the deques hold each linked node once, under the
   queue tag of the deque, never a dead one, and an alive counted node is linked.
   At quiescence (no pending task) the debts and credits vanish: see [quiescent_*].

   Every operation of Policy.v is a few changes of three kinds, each with one lemma: a deque changes
   ([PIX_set_queue]), what concerns one identity changes, i.e. its node and its two task counts
   ([PIX_set_node]), a counter moves together with its offset ([PIX_counters]). *)
From Otter Require Import Base Sketch Policy Wheel Maint PolicyFacts.
From Coq Require Import ZifyBool Lia Permutation.
Local Open Scope Z_scope.

Arguments wrapu : simpl never.

Definition skeys (st : list (Z * pnode)) : list Z := map fst st.

Lemma sget_sset_cases st id n x o : sget (sset st id n) x = Some o -> (x = id /\ o = n) \/ (x <> id /\ sget st x = Some o).
Proof.
  destruct (Z.eq_dec x id) as [->|N]; [rewrite sget_sset_same|rewrite sget_sset_other by exact N]; intros H; [left|right; tauto].
  injection H as <-. split; reflexivity.
Qed.

Lemma sget_in_keys st id n : sget st id = Some n -> In id (skeys st).
Proof.
  induction st as [|[i m] st IH]; cbn [sget skeys map fst]; [discriminate|].
  destruct (i =? id) eqn:E; [intros _; left; lia|intros H; right; apply IH; exact H].
Qed.

Lemma sget_none_keys st id : sget st id = None -> ~ In id (skeys st).
Proof.
  induction st as [|[i m] st IH]; cbn [sget skeys map fst]; [intros _ []|].
  destruct (i =? id) eqn:E; [discriminate|]. intros H [C|C]; [lia|exact (IH H C)].
Qed.

Lemma sset_keys st id n x : In x (skeys (sset st id n)) <-> In x (skeys st) \/ x = id.
Proof.
  unfold skeys. induction st as [|[i m] st IH]; cbn [sset map fst In].
  - intuition.
  - destruct (i =? id) eqn:E; cbn [map fst In]; [assert (i = id) by lia; subst i|rewrite IH]; intuition.
Qed.

Lemma sset_keys_nodup st id n : NoDup (skeys st) -> NoDup (skeys (sset st id n)).
Proof.
  induction st as [|[i m] st IH]; cbn [sset skeys map fst]; intros H.
  - constructor; [intros []|constructor].
  - inversion H as [|? ? Hni Hnd]; subst. destruct (i =? id) eqn:E; cbn [skeys map fst].
    + constructor; assumption.
    + constructor; [|apply IH; exact Hnd]. intros C. apply (sset_keys st id n) in C. destruct C as [C|C]; [exact (Hni C)|lia].
Qed.

Lemma sset_same st id n : sget st id = Some n -> sset st id n = st.
Proof.
  induction st as [|[i m] st IH]; cbn [sget sset]; [discriminate|].
  destruct (i =? id) eqn:E; [intros H; injection H as ->; reflexivity|intros H; rewrite IH by exact H; reflexivity].
Qed.

Lemma sset_length_present st id n : sget st id <> None -> length (sset st id n) = length st.
Proof.
  induction st as [|[i m] st IH]; cbn [sget sset]; [intros H; contradiction|].
  destruct (i =? id); cbn [length]; [reflexivity|intros H; rewrite IH by exact H; reflexivity].
Qed.

Fixpoint ssum (f : Z -> pnode -> Z) (st : list (Z * pnode)) : Z :=
  match st with [] => 0 | (i, n) :: st' => f i n + ssum f st' end.

Lemma ssum_ext f g st : (forall i nd, g i nd = f i nd) -> ssum g st = ssum f st.
Proof. intros H. induction st as [|[i m] st IH]; cbn [ssum]; [reflexivity|]. rewrite IH, H. reflexivity. Qed.

Lemma ssum_ext_off f g st id : ~ In id (skeys st) -> (forall i nd, i <> id -> g i nd = f i nd) -> ssum g st = ssum f st.
Proof.
  unfold skeys. intros Hni Hfg. induction st as [|[i m] st IH]; cbn [ssum]; [reflexivity|].
  cbn [map fst In] in Hni. rewrite IH by tauto. rewrite Hfg by (intros C; apply Hni; left; exact C). reflexivity.
Qed.

Lemma ssum_step f g st id n' : NoDup (skeys st) -> (forall i nd, i <> id -> g i nd = f i nd) ->
  ssum g (sset st id n') = ssum f st - (match sget st id with Some o => f id o | None => 0 end) + g id n'.
Proof.
  intros Hnd Hfg. induction st as [|[i m] st IH]; cbn [sset sget ssum].
  - lia.
  - inversion Hnd as [|? ? Hni Hnd']; subst. destruct (i =? id) eqn:E.
    + assert (i = id) by lia. subst i. cbn [ssum]. rewrite (ssum_ext_off f g st id Hni Hfg). lia.
    + cbn [ssum]. rewrite IH by exact Hnd'. rewrite Hfg by lia. lia.
Qed.

Lemma wrapu_idem a : wrapu (wrapu a) = wrapu a.
Proof. unfold wrapu. apply Z.mod_mod. discriminate. Qed.

Lemma in_dq_delete d id x : In x (dq_delete d id) <-> In x d /\ x <> id.
Proof. unfold dq_delete. rewrite filter_In. split; intros [A B]; (split; [exact A|lia]). Qed.

Lemma nodup_dq_delete d id : NoDup d -> NoDup (dq_delete d id).
Proof. unfold dq_delete. apply NoDup_filter. Qed.

Lemma dq_delete_notin l id : ~ In id l -> dq_delete l id = l.
Proof.
  unfold dq_delete. induction l as [|h r IH]; cbn [filter]; [reflexivity|]. intros Hni.
  destruct (h =? id) eqn:E; [exfalso; apply Hni; left; lia|]. cbn [negb]. f_equal. apply IH. intros X. apply Hni. right. exact X.
Qed.

Lemma dq_delete_head rest id : ~ In id rest -> dq_delete (id :: rest) id = rest.
Proof.
  intros Hni. unfold dq_delete. cbn [filter]. rewrite Z.eqb_refl. cbn [negb]. apply (dq_delete_notin rest id Hni).
Qed.

Lemma dq_contains_in d id : dq_contains d id = true <-> In id d.
Proof.
  unfold dq_contains. rewrite existsb_exists. split; [intros (x & Hx & E); assert (x = id) by lia; subst; exact Hx|intros H; exists id; split; [exact H|lia]].
Qed.

Lemma dq_head_in d x : dq_head d = Some x -> In x d.
Proof. destruct d as [|h d]; cbn [dq_head]; [discriminate|]. intros H. injection H as <-. left. reflexivity. Qed.

Lemma dq_next_in d id x : NoDup d -> dq_next d id = Some x -> In x d /\ x <> id.
Proof.
  induction d as [|h d IH]; cbn [dq_next]; [discriminate|]. intros Hd.
  inversion Hd as [|? ? Hni Hnd]; subst.
  destruct (h =? id) eqn:E.
  - assert (h = id) by lia. subst h. intros H. apply dq_head_in in H. split; [right; exact H|]. intros ->. exact (Hni H).
  - intros H. destruct (IH Hnd H) as [A B]. split; [right; exact A|exact B].
Qed.

Lemma nodup_app_iff (a b : list Z) : NoDup (a ++ b) <-> NoDup a /\ NoDup b /\ (forall x, In x a -> ~ In x b).
Proof.
  induction a as [|h a IH]; cbn [app].
  - split; [intros H; repeat split; [constructor|exact H|intros x []]|intros (_ & H & _); exact H].
  - rewrite !NoDup_cons_iff, IH, in_app_iff. cbn [In]. firstorder subst; auto.
Qed.

Lemma nodup3_iff (a b c : list Z) : NoDup (a ++ b ++ c) <->
  NoDup a /\ NoDup b /\ NoDup c /\ (forall x, In x a -> ~ In x b) /\ (forall x, In x a -> ~ In x c) /\ (forall x, In x b -> ~ In x c).
Proof.
  rewrite !nodup_app_iff. setoid_rewrite in_app_iff. firstorder.
Qed.

Lemma nodup_snoc (d : list Z) x : NoDup d -> ~ In x d -> NoDup (d ++ [x]).
Proof.
  intros Nd Hx. apply nodup_app_iff. repeat split; [exact Nd|constructor; [intros []|constructor]|].
  intros y Hy [<-|[]]. exact (Hx Hy).
Qed.

Lemma push_back_spec d n : NoDup d -> ~ In n d -> NoDup (dq_push_back d n) /\ forall x, In x (dq_push_back d n) <-> x = n \/ In x d.
Proof.
  intros Nd Hn. split; [apply nodup_snoc; assumption|]. intros x. unfold dq_push_back. rewrite in_app_iff. cbn [In]. intuition.
Qed.

Lemma in_dq_update d n old x : In x (dq_update d n old) <-> (In x d /\ x <> old) \/ (x = n /\ In old d).
Proof.
  unfold dq_update. rewrite in_map_iff. split.
  - intros (y & E & Hy). destruct (y =? old) eqn:Ey.
    + right. split; [symmetry; exact E|]. assert (y = old) by lia. subst y. exact Hy.
    + left. subst x. split; [exact Hy|lia].
  - intros [[Hx N]|[-> Ho]].
    + exists x. split; [replace (x =? old) with false by lia; reflexivity|exact Hx].
    + exists old. split; [rewrite Z.eqb_refl; reflexivity|exact Ho].
Qed.

Lemma nodup_dq_update d n old : NoDup d -> ~ In n d -> NoDup (dq_update d n old).
Proof.
  unfold dq_update. intros Hd Hn. induction d as [|h d IH]; cbn [map]; [constructor|].
  inversion Hd as [|? ? Hni Hnd]; subst. constructor.
  - rewrite in_map_iff. intros (y & E & Hy). destruct (h =? old) eqn:Eh; destruct (y =? old) eqn:Ey.
    + assert (h = old) by lia. assert (y = old) by lia. subst. exact (Hni Hy).
    + subst y. apply Hn. right. exact Hy.
    + subst h. apply Hn. left. reflexivity.
    + subst y. exact (Hni Hy).
  - apply IH; [exact Hnd|]. intros X. apply Hn. right. exact X.
Qed.

Lemma in_move_to_back d id x : In id d -> (In x (dq_move_to_back d id) <-> In x d).
Proof.
  intros Hid. unfold dq_move_to_back, dq_push_back. rewrite in_app_iff, in_dq_delete. cbn [In].
  split; [intros [[A _]|[<-|[]]]; assumption|intros A; destruct (Z.eq_dec x id) as [->|N]; [right; left; reflexivity|left; split; assumption]].
Qed.

Lemma nodup_move_to_back d id : NoDup d -> NoDup (dq_move_to_back d id).
Proof.
  intros H. apply nodup_snoc; [apply nodup_dq_delete; exact H|]. rewrite in_dq_delete. tauto.
Qed.

Lemma in_move_to_front d id x : In id d -> (In x (dq_move_to_front d id) <-> In x d).
Proof.
  intros Hid. unfold dq_move_to_front, dq_push_front. cbn [In]. rewrite in_dq_delete.
  split; [intros [<-|[A _]]; assumption|intros A; destruct (Z.eq_dec x id) as [->|N]; [left; reflexivity|right; split; assumption]].
Qed.

Lemma nodup_move_to_front d id : NoDup d -> NoDup (dq_move_to_front d id).
Proof.
  intros H. constructor; [rewrite in_dq_delete; tauto|apply nodup_dq_delete; exact H].
Qed.

Definition vq (q : Z) : Prop := q = QWINDOW \/ q = QPROBATION \/ q = QPROTECTED.

Lemma vq_win : vq QWINDOW.  Proof. left. reflexivity. Qed.
Lemma vq_prob : vq QPROBATION.  Proof. right. left. reflexivity. Qed.
Lemma vq_prot : vq QPROTECTED.  Proof. right. right. reflexivity. Qed.

Lemma queue_of_set_queue p q q' d : vq q -> vq q' -> queue_of (set_queue p q d) q' = if q' =? q then d else queue_of p q'.
Proof. intros [->|[->| ->]] [->|[->| ->]]; reflexivity. Qed.

Lemma store_set_queue p q d : store (set_queue p q d) = store p.
Proof. unfold set_queue. destruct (q =? QWINDOW); [|destruct (q =? QPROBATION)]; reflexivity. Qed.

Lemma node_of_some p id nd : sget (store p) id = Some nd -> node_of p id = nd.
Proof. unfold node_of. intros ->. reflexivity. Qed.

Lemma node_of_none p id : sget (store p) id = None -> node_of p id = mkPnode 0 0 DEAD QWINDOW.
Proof. unfold node_of. intros ->. reflexivity. Qed.

Lemma own_queue_cases p id :
  (own_queue p id = QWINDOW /\ pqueue (node_of p id) = QWINDOW) \/
  (own_queue p id = QPROBATION /\ pqueue (node_of p id) = QPROBATION) \/
  (own_queue p id = QPROTECTED /\ pqueue (node_of p id) <> QWINDOW /\ pqueue (node_of p id) <> QPROBATION).
Proof.
  unfold own_queue, QWINDOW, QPROBATION, QPROTECTED.
  destruct (pqueue (node_of p id) =? 0) eqn:E0; [left; split; [reflexivity|lia]|].
  destruct (pqueue (node_of p id) =? 1) eqn:E1; [right; left; split; [reflexivity|lia]|].
  right; right. split; [reflexivity|lia].
Qed.

Lemma own_queue_valid p id : vq (pqueue (node_of p id)) -> own_queue p id = pqueue (node_of p id).
Proof. unfold own_queue, QWINDOW, QPROBATION, QPROTECTED. intros [-> | [-> | ->]]; reflexivity. Qed.

Lemma own_queue_vq p id : vq (own_queue p id).
Proof. destruct (own_queue_cases p id) as [[-> _]|[[-> _]|[-> _]]]; [apply vq_win|apply vq_prob|apply vq_prot]. Qed.

Definition linked (p : policy) (id : Z) : Prop := In id (qwin p) \/ In id (qprob p) \/ In id (qprot p).

Lemma linked_queue p id : linked p id <-> exists q, vq q /\ In id (queue_of p q).
Proof.
  split.
  - intros [L|[L|L]]; [exists QWINDOW|exists QPROBATION|exists QPROTECTED]; (split; [unfold vq; tauto|exact L]).
  - intros (q & [->|[->| ->]] & L); [left|right; left|right; right]; exact L.
Qed.

Lemma linked_set_queue p q d x : vq q ->
  (linked (set_queue p q d) x <-> In x d \/ exists q', vq q' /\ q' <> q /\ In x (queue_of p q')).
Proof.
  intros Hq. rewrite linked_queue. split.
  - intros (q' & Hq' & L). rewrite queue_of_set_queue in L by assumption.
    destruct (q' =? q) eqn:E; [left; exact L|right; exists q'; repeat split; [exact Hq'|lia|exact L]].
  - intros [I|(q' & Hq' & N & I)]; [exists q|exists q']; (split; [assumption|]); rewrite queue_of_set_queue by assumption;
      [rewrite Z.eqb_refl|replace (q' =? q) with false by lia]; exact I.
Qed.

Lemma linked_dec p id : {linked p id} + {~ linked p id}.
Proof.
  unfold linked.
  destruct (in_dec Z.eq_dec id (qwin p)); [left; tauto|].
  destruct (in_dec Z.eq_dec id (qprob p)); [left; tauto|].
  destruct (in_dec Z.eq_dec id (qprot p)); [left; tauto|right; tauto].
Qed.

(* [cn id] / [co id]: number of pending tasks that mention id as the new node (TAdd id, TUpd id _) /
   as the node going away (TDel id, TUpd _ id) *)
Definition coef (cn : Z -> Z) (id : Z) (nd : pnode) : Z :=
  (if cn id =? 0 then 1 else 0) - (if pstate nd =? DEAD then 1 else 0).

Definition f_all (cn : Z -> Z) (id : Z) (nd : pnode) : Z := coef cn id nd * pweight nd.
Definition f_win (cn : Z -> Z) (id : Z) (nd : pnode) : Z := if pqueue nd =? QWINDOW then coef cn id nd * pweight nd else 0.
Definition f_prot (cn : Z -> Z) (id : Z) (nd : pnode) : Z := if pqueue nd =? QPROTECTED then coef cn id nd * pweight nd else 0.

Definition in_queue_ok (p : policy) (cn : Z -> Z) (d : list Z) (q : Z) : Prop :=
  forall id, In id d -> exists nd, sget (store p) id = Some nd /\ pqueue nd = q /\ pstate nd <> DEAD /\ cn id = 0.

Section Offsets.
(* weight still to be added to the three counters in the middle of an operation (zero between operations) *)
Variables dw dww dpw : Z.

(* [ex]: nodes temporarily exempt from "alive and counted implies linked" in the middle of an operation *)
Record PIX (ex : Z -> Prop) (p : policy) (cn co : Z -> Z) : Prop := mkPIX {
  pi_keys : NoDup (skeys (store p));
  pi_nodup : NoDup (qwin p ++ qprob p ++ qprot p);
  pi_win : in_queue_ok p cn (qwin p) QWINDOW;
  pi_prob : in_queue_ok p cn (qprob p) QPROBATION;
  pi_prot : in_queue_ok p cn (qprot p) QPROTECTED;
  pi_absent : forall id, sget (store p) id = None -> cn id = 0 /\ co id = 0;
  pi_range : forall id, 0 <= cn id <= 1 /\ 0 <= co id <= 1;
  pi_alive : forall id nd, sget (store p) id = Some nd -> pstate nd = ALIVE ->
               co id = 0 /\ (cn id = 0 -> ~ ex id -> linked p id);
  pi_retired : forall id nd, sget (store p) id = Some nd -> pstate nd = RETIRED -> co id = 1;
  pi_fresh : forall id nd, sget (store p) id = Some nd -> cn id = 1 -> pqueue nd = QWINDOW;
  pi_states : forall id nd, sget (store p) id = Some nd ->
               (pstate nd = ALIVE \/ pstate nd = RETIRED \/ pstate nd = DEAD) /\
               (pqueue nd = QWINDOW \/ pqueue nd = QPROBATION \/ pqueue nd = QPROTECTED);
  pi_wsize : wsize p = wrapu (ssum (f_all cn) (store p) + dw);
  pi_wwsize : wwsize p = wrapu (ssum (f_win cn) (store p) + dww);
  pi_pwsize : pwsize p = wrapu (ssum (f_prot cn) (store p) + dpw)
}.

End Offsets.

Definition PI (p : policy) (cn co : Z -> Z) : Prop := PIX 0 0 0 (fun _ => False) p cn co.

Definition tracked (p : policy) (cn : Z -> Z) (q id : Z) : Prop :=
  exists nd, sget (store p) id = Some nd /\ pqueue nd = q /\ pstate nd <> DEAD /\ cn id = 0.

Lemma PIX_queue {dw dww dpw ex p cn co} q : PIX dw dww dpw ex p cn co -> vq q -> in_queue_ok p cn (queue_of p q) q.
Proof.
  intros HP [-> | [-> | ->]].
  - exact (pi_win _ _ _ _ _ _ _ HP).
  - exact (pi_prob _ _ _ _ _ _ _ HP).
  - exact (pi_prot _ _ _ _ _ _ _ HP).
Qed.

Lemma queue_tag_of_linked dw dww dpw ex p cn co id q :
  PIX dw dww dpw ex p cn co -> (q = QWINDOW \/ q = QPROBATION \/ q = QPROTECTED) -> In id (queue_of p q) ->
  exists nd, sget (store p) id = Some nd /\ pqueue nd = q /\ pstate nd <> DEAD /\ cn id = 0.
Proof. intros HP Hq. exact (PIX_queue q HP Hq id). Qed.

Lemma linked_tracked {dw dww dpw ex p cn co} id : PIX dw dww dpw ex p cn co -> linked p id ->
  exists nd, sget (store p) id = Some nd /\ vq (pqueue nd) /\ In id (queue_of p (pqueue nd)) /\ pstate nd <> DEAD /\ cn id = 0.
Proof.
  intros HP L. apply linked_queue in L. destruct L as (q & Hq & L).
  destruct (PIX_queue q HP Hq id L) as (nd & A & <- & C & D). exists nd. repeat split; assumption.
Qed.

Lemma PIX_nodup_queue {dw dww dpw ex p cn co} q : PIX dw dww dpw ex p cn co -> NoDup (queue_of p q).
Proof.
  intros HP. pose proof (pi_nodup _ _ _ _ _ _ _ HP) as N. apply nodup3_iff in N.
  unfold queue_of. destruct (q =? QWINDOW); [|destruct (q =? QPROBATION)]; apply N.
Qed.

Lemma tagged_disjoint p cn d1 d2 q1 q2 : in_queue_ok p cn d1 q1 -> in_queue_ok p cn d2 q2 -> q1 <> q2 -> forall x, In x d1 -> ~ In x d2.
Proof.
  intros O1 O2 N x I1 I2. destruct (O1 x I1) as (nd & A & B & _), (O2 x I2) as (nd' & A' & B' & _). congruence.
Qed.

Lemma own_queue_tag p id nd : sget (store p) id = Some nd -> vq (pqueue nd) -> own_queue p id = pqueue nd.
Proof. intros Es Hv. rewrite <- (node_of_some p id nd Es) in *. apply own_queue_valid. exact Hv. Qed.

Lemma PIX_own_queue {dw dww dpw ex p cn co} id q : PIX dw dww dpw ex p cn co -> vq q -> In id (queue_of p q) -> own_queue p id = q.
Proof.
  intros HP Hq L. destruct (PIX_queue q HP Hq id L) as (nd & A & <- & _). apply (own_queue_tag p id nd A Hq).
Qed.

Lemma pending_not_linked {dw dww dpw ex p cn co} n : PIX dw dww dpw ex p cn co -> cn n <> 0 -> ~ linked p n.
Proof. intros HP Hc L. destruct (linked_tracked n HP L) as (nd & _ & _ & _ & _ & D). exact (Hc D). Qed.

Lemma pending_present {dw dww dpw ex p cn co} n : PIX dw dww dpw ex p cn co -> cn n <> 0 -> exists nd, sget (store p) n = Some nd.
Proof.
  intros HP Hc. destruct (sget (store p) n) as [nd|] eqn:E; [exists nd; reflexivity|].
  destruct (pi_absent _ _ _ _ _ _ _ HP n E) as [A _]. contradiction.
Qed.

Lemma PIX_of_queues dw dww dpw ex ex' p p' cn co :
  PIX dw dww dpw ex p cn co ->
  store p' = store p -> wsize p' = wsize p -> wwsize p' = wwsize p -> pwsize p' = pwsize p ->
  (forall q, vq q -> NoDup (queue_of p' q)) ->
  (forall q, vq q -> in_queue_ok p cn (queue_of p' q) q) ->
  (forall x nd, sget (store p) x = Some nd -> pstate nd = ALIVE -> cn x = 0 -> ~ ex' x -> linked p' x) ->
  PIX dw dww dpw ex' p' cn co.
Proof.
  intros [H1 H2 H3 H4 H5 H6 H7 H8 H9 H10 H11 H12 H13 H14] E1 E5 E6 E7 Nq Ok Lk.
  pose proof (Ok _ vq_win) as Ow. pose proof (Ok _ vq_prob) as Ob. pose proof (Ok _ vq_prot) as Ot.
  constructor; unfold in_queue_ok; rewrite ?E1, ?E5, ?E6, ?E7; try assumption.
  - apply nodup3_iff. repeat split; [exact (Nq _ vq_win)|exact (Nq _ vq_prob)|exact (Nq _ vq_prot)|..];
      [apply (tagged_disjoint p cn _ _ _ _ Ow Ob)|apply (tagged_disjoint p cn _ _ _ _ Ow Ot)|apply (tagged_disjoint p cn _ _ _ _ Ob Ot)]; discriminate.
  - intros x nd Hs Ha. split; [apply (H8 x nd Hs Ha)|]. intros Hc Hx. exact (Lk x nd Hs Ha Hc Hx).
Qed.

Lemma PIX_shrink_ex dw dww dpw (ex ex' : Z -> Prop) p cn co :
  (forall x nd, sget (store p) x = Some nd -> pstate nd = ALIVE -> cn x = 0 -> ex x -> ex' x \/ linked p x) ->
  PIX dw dww dpw ex p cn co -> PIX dw dww dpw ex' p cn co.
Proof.
  intros Hex HP. apply (PIX_of_queues _ _ _ ex _ p); try reflexivity; [exact HP|..].
  - intros q Hq. exact (PIX_nodup_queue q HP).
  - intros q Hq x. exact (PIX_queue q HP Hq x).
  - intros x nd Hs Ha Hc Hx. destruct (linked_dec p x) as [L|L]; [exact L|]. exfalso.
    assert (NE : ~ ex x). { intros E. destruct (Hex x nd Hs Ha Hc E) as [E'|E']; [exact (Hx E')|exact (L E')]. }
    exact (L (proj2 (pi_alive _ _ _ _ _ _ _ HP x nd Hs Ha) Hc NE)).
Qed.

Lemma PIX_set_queue dw dww dpw ex ex' p cn co q d :
  PIX dw dww dpw ex p cn co -> vq q -> NoDup d ->
  (forall x, In x d -> In x (queue_of p q) \/ tracked p cn q x) ->
  (forall x nd, sget (store p) x = Some nd -> pstate nd = ALIVE -> ~ ex' x -> ex x \/ In x (queue_of p q) -> In x d) ->
  PIX dw dww dpw ex' (set_queue p q d) cn co.
Proof.
  intros HP Hq Nd Hin Hal.
  assert (Eq : forall q', vq q' -> queue_of (set_queue p q d) q' = if q' =? q then d else queue_of p q')
    by (intros q' Hq'; apply queue_of_set_queue; assumption).
  apply (PIX_of_queues _ _ _ ex _ p); [exact HP|apply store_set_queue|destruct Hq as [->|[->| ->]]; reflexivity..| | |].
  - intros q' Hq'. rewrite Eq by exact Hq'. destruct (q' =? q); [exact Nd|exact (PIX_nodup_queue q' HP)].
  - intros q' Hq' x Hx. rewrite Eq in Hx by exact Hq'. destruct (q' =? q) eqn:E.
    + assert (q' = q) by lia. subst q'. destruct (Hin x Hx) as [I|T]; [exact (PIX_queue q HP Hq x I)|exact T].
    + exact (PIX_queue q' HP Hq' x Hx).
  - intros x nd Hs Ha Hc Hx. apply (linked_set_queue p q d x Hq).
    destruct (in_dec Z.eq_dec x d) as [I|I]; [left; exact I|right].
    assert (Nx : ~ ex x) by (intros E; exact (I (Hal x nd Hs Ha Hx (or_introl E)))).
    destruct (proj1 (linked_queue p x) (proj2 (pi_alive _ _ _ _ _ _ _ HP x nd Hs Ha) Hc Nx)) as (q0 & Hq0 & I0).
    exists q0. repeat split; [exact Hq0| |exact I0]. intros ->. exact (I (Hal x nd Hs Ha Hx (or_intror I0))).
Qed.

Lemma PIX_perm_queue dw dww dpw ex p cn co q d :
  PIX dw dww dpw ex p cn co -> vq q -> NoDup d -> (forall x, In x d <-> In x (queue_of p q)) ->
  PIX dw dww dpw ex (set_queue p q d) cn co.
Proof.
  intros HP Hq Nd Hd. apply (PIX_set_queue _ _ _ ex); try assumption.
  - intros x Hx. left. apply Hd. exact Hx.
  - intros x nd _ _ Hx [E|I]; [contradiction|apply Hd; exact I].
Qed.

Lemma PIX_link dw dww dpw (ex ex' : Z -> Prop) p cn co q n d :
  PIX dw dww dpw ex p cn co -> vq q -> tracked p cn q n -> (forall x, x <> n -> ex x -> ex' x) ->
  NoDup d -> (forall x, In x d <-> x = n \/ In x (queue_of p q)) ->
  PIX dw dww dpw ex' (set_queue p q d) cn co.
Proof.
  intros HP Hq Ht Hex Nd Hd. apply (PIX_set_queue _ _ _ ex); try assumption.
  - intros x Hx. apply Hd in Hx. destruct Hx as [->|Hx]; [right; exact Ht|left; exact Hx].
  - intros x nd _ _ Hx Hor. apply Hd. destruct (Z.eq_dec x n) as [E|N]; [left; exact E|right].
    destruct Hor as [E|I]; [elim (Hx (Hex x N E))|exact I].
Qed.

Lemma PIX_counters dw dww dpw dw' dww' dpw' ex p p' cn co :
  store p' = store p -> qwin p' = qwin p -> qprob p' = qprob p -> qprot p' = qprot p ->
  (forall S, wsize p = wrapu (S + dw) -> wsize p' = wrapu (S + dw')) ->
  (forall S, wwsize p = wrapu (S + dww) -> wwsize p' = wrapu (S + dww')) ->
  (forall S, pwsize p = wrapu (S + dpw) -> pwsize p' = wrapu (S + dpw')) ->
  PIX dw dww dpw ex p cn co -> PIX dw' dww' dpw' ex p' cn co.
Proof.
  intros E1 E2 E3 E4 E5 E6 E7 [H1 H2 H3 H4 H5 H6 H7 H8 H9 H10 H11 H12 H13 H14].
  constructor; unfold in_queue_ok, linked in *; rewrite ?E1, ?E2, ?E3, ?E4; try assumption.
  - apply E5. exact H12.
  - apply E6. exact H13.
  - apply E7. exact H14.
Qed.

Lemma PIX_offsets dw dww dpw dw' dww' dpw' ex p cn co :
  dw = dw' -> dww = dww' -> dpw = dpw' -> PIX dw dww dpw ex p cn co -> PIX dw' dww' dpw' ex p cn co.
Proof. intros -> -> ->. exact (fun H => H). Qed.

Lemma cstep_same c c' d d' : c' = c -> d' = d -> forall S, c = wrapu (S + d) -> c' = wrapu (S + d').
Proof. intros -> -> S H. exact H. Qed.
Lemma cstep_add w c c' d d' : c' = wrapu (c + w) -> d' = d + w -> forall S, c = wrapu (S + d) -> c' = wrapu (S + d').
Proof. intros -> -> S ->. rewrite wrapu_add_l. f_equal. lia. Qed.

Lemma PIX_ext dw dww dpw ex p p' cn co :
  store p' = store p -> qwin p' = qwin p -> qprob p' = qprob p -> qprot p' = qprot p ->
  wsize p' = wsize p -> wwsize p' = wwsize p -> pwsize p' = pwsize p ->
  PIX dw dww dpw ex p cn co -> PIX dw dww dpw ex p' cn co.
Proof.
  intros E1 E2 E3 E4 E5 E6 E7. apply PIX_counters; try assumption; apply cstep_same; assumption || reflexivity.
Qed.

(* f_all, f_win, f_prot are [wt] of the selectors below, by computation *)
Definition wt (sel : Z -> bool) (cn : Z -> Z) (id : Z) (nd : pnode) : Z := if sel (pqueue nd) then coef cn id nd * pweight nd else 0.
Definition wt_of (sel : Z -> bool) (cn : Z -> Z) (id : Z) (o : option pnode) : Z := match o with Some nd => wt sel cn id nd | None => 0 end.
Definition s_all (q : Z) : bool := true.
Definition s_tag (t q : Z) : bool := q =? t.

Lemma f_as_wt cn : f_all cn = wt s_all cn /\ f_win cn = wt (s_tag QWINDOW) cn /\ f_prot cn = wt (s_tag QPROTECTED) cn.
Proof. repeat split. Qed.

Lemma ctr_set_node sel cn cn' st id nd' c d : NoDup (skeys st) -> (forall x, x <> id -> cn' x = cn x) ->
  c = wrapu (ssum (wt sel cn) st + d) ->
  c = wrapu (ssum (wt sel cn') (sset st id nd') + (d + wt_of sel cn id (sget st id) - wt sel cn' id nd')).
Proof.
  intros Hk Hc ->. f_equal. rewrite (ssum_step (wt sel cn) (wt sel cn')) by (exact Hk || (intros i nd Hi; unfold wt, coef; rewrite (Hc i Hi); reflexivity)).
  unfold wt_of. lia.
Qed.

(* what the invariant asks of one identity *)
Definition node_inv (nd : pnode) (cn co : Z) (lk exempt : Prop) : Prop :=
  (0 <= cn <= 1 /\ 0 <= co <= 1) /\
  ((pstate nd = ALIVE \/ pstate nd = RETIRED \/ pstate nd = DEAD) /\ vq (pqueue nd)) /\
  (pstate nd = ALIVE -> co = 0 /\ (cn = 0 -> ~ exempt -> lk)) /\
  (pstate nd = RETIRED -> co = 1) /\
  (cn = 1 -> pqueue nd = QWINDOW) /\
  (lk -> pstate nd <> DEAD /\ cn = 0).

Lemma PIX_node {dw dww dpw ex p cn co} id nd : PIX dw dww dpw ex p cn co -> sget (store p) id = Some nd ->
  node_inv nd (cn id) (co id) (linked p id) (ex id).
Proof.
  intros HP Es.
  split; [exact (pi_range _ _ _ _ _ _ _ HP id)|]. split; [exact (pi_states _ _ _ _ _ _ _ HP id nd Es)|].
  split; [exact (pi_alive _ _ _ _ _ _ _ HP id nd Es)|]. split; [exact (pi_retired _ _ _ _ _ _ _ HP id nd Es)|].
  split; [exact (pi_fresh _ _ _ _ _ _ _ HP id nd Es)|].
  intros L. destruct (linked_tracked id HP L) as (n0 & A & _ & _ & C & D). split; congruence.
Qed.

Lemma PIX_set_node dw dww dpw (ex ex' : Z -> Prop) p cn co cn' co' id nd' :
  PIX dw dww dpw ex p cn co ->
  (forall x, x <> id -> cn' x = cn x /\ co' x = co x /\ (ex x -> ex' x)) ->
  node_inv nd' (cn' id) (co' id) (linked p id) (ex' id) ->
  (linked p id -> pqueue nd' = pqueue (node_of p id)) ->
  let o := sget (store p) id in
  PIX (dw + wt_of s_all cn id o - wt s_all cn' id nd') (dww + wt_of (s_tag QWINDOW) cn id o - wt (s_tag QWINDOW) cn' id nd')
      (dpw + wt_of (s_tag QPROTECTED) cn id o - wt (s_tag QPROTECTED) cn' id nd') ex' (set_node p id nd') cn' co'.
Proof.
  intros HP Hoff (Hr & Hv & Ha & Hrt & Hf & Hl) Htag o.
  assert (Hcn : forall x, x <> id -> cn' x = cn x) by (intros x N; apply (Hoff x N)).
  assert (Hq : forall d q, in_queue_ok p cn d q -> (forall x, In x d -> linked p x) -> in_queue_ok (set_node p id nd') cn' d q).
  { intros d q Hd Hlk x Hx. destruct (Hd x Hx) as (n0 & A & B & C & D). cbn [set_node with_store store].
    destruct (Z.eq_dec x id) as [->|N].
    - exists nd'. rewrite sget_sset_same. specialize (Hlk id Hx). rewrite (Htag Hlk), (node_of_some p id n0 A).
      repeat split; [exact B|apply (Hl Hlk)..].
    - exists n0. rewrite sget_sset_other, (Hcn x N) by exact N. repeat split; assumption. }
  destruct HP as [H1 H2 H3 H4 H5 H6 H7 H8 H9 H10 H11 H12 H13 H14].
  constructor; try (apply Hq; [assumption|intros x Hx; unfold linked; tauto]); cbn [set_node with_store store qwin qprob qprot wsize wwsize pwsize].
  - apply sset_keys_nodup. exact H1.
  - exact H2.
  - intros x Hx. destruct (Z.eq_dec x id) as [->|N]; [rewrite sget_sset_same in Hx; discriminate|].
    rewrite sget_sset_other in Hx by exact N. destruct (Hoff x N) as (-> & -> & _). exact (H6 x Hx).
  - intros x. destruct (Z.eq_dec x id) as [->|N]; [exact Hr|]. destruct (Hoff x N) as (-> & -> & _). exact (H7 x).
  - intros x n0 Hx Hal. destruct (sget_sset_cases _ _ _ _ _ Hx) as [[-> ->]|[N Hx']]; [exact (Ha Hal)|].
    destruct (Hoff x N) as (-> & -> & He), (H8 x n0 Hx' Hal) as [A B].
    split; [exact A|]. intros C D. apply B; [exact C|]. intros E. exact (D (He E)).
  - intros x n0 Hx Hrd. destruct (sget_sset_cases _ _ _ _ _ Hx) as [[-> ->]|[N Hx']]; [exact (Hrt Hrd)|].
    destruct (Hoff x N) as (_ & -> & _). exact (H9 x n0 Hx' Hrd).
  - intros x n0 Hx Hc. destruct (sget_sset_cases _ _ _ _ _ Hx) as [[-> ->]|[N Hx']]; [exact (Hf Hc)|].
    rewrite (Hcn x N) in Hc. exact (H10 x n0 Hx' Hc).
  - intros x n0 Hx. destruct (sget_sset_cases _ _ _ _ _ Hx) as [[-> ->]|[N Hx']]; [exact Hv|exact (H11 x n0 Hx')].
  - exact (ctr_set_node s_all cn cn' _ id nd' _ dw H1 Hcn H12).
  - exact (ctr_set_node (s_tag QWINDOW) cn cn' _ id nd' _ dww H1 Hcn H13).
  - exact (ctr_set_node (s_tag QPROTECTED) cn cn' _ id nd' _ dpw H1 Hcn H14).
Qed.

Lemma coef_cases cn id nd : coef cn id nd = 1 \/ coef cn id nd = 0 \/ coef cn id nd = -1.
Proof. unfold coef. destruct (cn id =? 0); destruct (pstate nd =? DEAD); lia. Qed.

Lemma linked_make_dead p id x : linked (make_dead p id) x <-> linked p x.
Proof. unfold linked, make_dead. destruct (pstate (node_of p id) =? DEAD); reflexivity. Qed.

Lemma make_dead_state p id x : sget (store (make_dead p id)) id = Some x -> pstate x = DEAD.
Proof.
  unfold make_dead. destruct (pstate (node_of p id) =? DEAD) eqn:Ed.
  - intros H. rewrite (node_of_some p id x H) in Ed. lia.
  - cbn [set_state_of set_node with_store store]. rewrite sget_sset_same. intros H. injection H as <-. reflexivity.
Qed.

(* the dead node needs no exemption afterwards *)
Lemma PIX_make_dead dw dww dpw (ex ex' : Z -> Prop) p cn co id :
  PIX dw dww dpw ex p cn co -> ~ linked p id -> (forall x, x <> id -> ex x -> ex' x) -> PIX dw dww dpw ex' (make_dead p id) cn co.
Proof.
  intros HP Hnl Hex. unfold make_dead.
  destruct (pstate (node_of p id) =? DEAD) eqn:Ed.
  { apply (PIX_shrink_ex _ _ _ ex); [|exact HP]. intros x nd Hs Ha _ E. left. apply Hex; [|exact E].
    intros ->. rewrite (node_of_some p id nd Hs) in Ed. unfold ALIVE, DEAD in *. lia. }
  destruct (sget (store p) id) as [nd|] eqn:Es; [|rewrite (node_of_none p id Es) in Ed; discriminate].
  rewrite (node_of_some p id nd Es) in *.
  set (nd' := mkPnode (pkey nd) (pweight nd) DEAD (pqueue nd)).
  assert (Hn : node_inv nd' (cn id) (co id) (linked p id) (ex' id)).
  { destruct (PIX_node id nd HP Es) as (R & (_ & V) & _ & _ & F & _).
    split; [exact R|]. split; [split; [right; right; reflexivity|exact V]|].
    split; [intros H; discriminate H|]. split; [intros H; discriminate H|]. split; [exact F|]. intros L. contradiction. }
  pose proof (PIX_set_node _ _ _ ex ex' p cn co cn co id nd' HP
                ltac:(intros x N; split; [reflexivity|split; [reflexivity|exact (Hex x N)]]) Hn ltac:(intros L; contradiction)) as H.
  cbv zeta in H. rewrite Es in H.
  unfold set_state_of. rewrite (node_of_some _ id nd) by exact Es.
  eapply PIX_counters with (8 := H); try reflexivity; cbn [wt_of]; unfold wt, s_all, s_tag, coef, nd'; cbn [pstate pweight pqueue];
    rewrite Ed; change (DEAD =? DEAD) with true.
  - apply (cstep_add (- pweight nd)); [reflexivity|destruct (cn id =? 0); lia].
  - destruct (pqueue nd =? QWINDOW); [apply (cstep_add (- pweight nd))|apply cstep_same]; try reflexivity; destruct (cn id =? 0); lia.
  - destruct (pqueue nd =? QPROTECTED); [apply (cstep_add (- pweight nd))|apply cstep_same]; try reflexivity; destruct (cn id =? 0); lia.
Qed.

Lemma PIX_unlink dw dww dpw ex p cn co id :
  PIX dw dww dpw ex p cn co ->
  let p' := set_queue p (own_queue p id) (dq_delete (queue_of p (own_queue p id)) id) in
  PIX dw dww dpw (fun x => ex x \/ x = id) p' cn co /\ ~ linked p' id.
Proof.
  intros HP p'. pose proof (own_queue_vq p id) as Hq. split.
  - apply (PIX_set_queue _ _ _ ex); [exact HP|exact Hq|apply nodup_dq_delete, (PIX_nodup_queue _ HP)| |].
    + intros x Hx. left. apply in_dq_delete in Hx. apply Hx.
    + intros x nd _ _ Hx Hor. apply in_dq_delete. tauto.
  - intros L. apply (linked_set_queue p _ _ id Hq) in L. destruct L as [L|(q0 & Hq0 & N & L)].
    + apply in_dq_delete in L. tauto.
    + exact (N (eq_sym (PIX_own_queue id q0 HP Hq0 L))).
Qed.

Lemma PIX_pol_delete dw dww dpw (ex ex' : Z -> Prop) p cn co id :
  PIX dw dww dpw ex p cn co -> (forall x, x <> id -> ex x -> ex' x) ->
  PIX dw dww dpw ex' (pol_delete p id) cn co /\ ~ linked (pol_delete p id) id.
Proof.
  intros HP Hex. unfold pol_delete. destruct (PIX_unlink _ _ _ ex p cn co id HP) as [H1 H2]. cbv zeta in H1, H2.
  split; [|rewrite linked_make_dead; exact H2].
  apply (PIX_make_dead _ _ _ (fun x => ex x \/ x = id)); [exact H1|exact H2|]. intros x N [E|E]; [exact (Hex x N E)|contradiction].
Qed.

Lemma PIX_pol_evict dw dww dpw (ex ex' : Z -> Prop) p cn co id :
  PIX dw dww dpw ex p cn co -> (forall x, x <> id -> ex x -> ex' x) -> PIX dw dww dpw ex' (pol_evict p id) cn co.
Proof.
  intros HP Hex. destruct (PIX_pol_delete _ _ _ ex ex' p cn co id HP Hex) as [H1 H2].
  exact (PIX_make_dead _ _ _ ex' ex' _ _ _ id H1 H2 (fun _ _ E => E)).
Qed.

Lemma queue_of_make_dead p id q : queue_of (make_dead p id) q = queue_of p q.
Proof. unfold make_dead. destruct (pstate (node_of p id) =? DEAD); reflexivity. Qed.

(* a tag outside the three acts as QPROTECTED *)
Lemma queue_norm q : exists q', vq q' /\ forall p, queue_of p q = queue_of p q' /\ forall d, set_queue p q d = set_queue p q' d.
Proof.
  unfold queue_of, set_queue.
  destruct (q =? QWINDOW); [exists QWINDOW|destruct (q =? QPROBATION); [exists QPROBATION|exists QPROTECTED]];
    (split; [unfold vq; tauto|intros p; split; reflexivity]).
Qed.

(* it is deleted from the deque its tag names, where alone it can be linked *)
Lemma PIX_evict_queue {dw dww dpw ex p cn co} id q :
  PIX dw dww dpw ex p cn co -> queue_of (pol_evict p id) q = dq_delete (queue_of p q) id.
Proof.
  intros HP. destruct (queue_norm q) as (q' & Hq & Hn). rewrite (proj1 (Hn p)), (proj1 (Hn _)).
  unfold pol_evict, pol_delete. rewrite !queue_of_make_dead, queue_of_set_queue by (exact Hq || apply own_queue_vq).
  destruct (q' =? own_queue p id) eqn:E; [apply Z.eqb_eq in E; rewrite E; reflexivity|].
  symmetry. apply dq_delete_notin. intros L. rewrite (PIX_own_queue id q' HP Hq L) in E. lia.
Qed.

Lemma PI_evict p cn co id : PI p cn co -> PI (pol_evict p id) cn co.
Proof. intros HP. exact (PIX_pol_evict _ _ _ _ _ p cn co id HP (fun _ _ E => E)). Qed.

Definition clear_at (c : Z -> Z) (n : Z) : Z -> Z := fun x => if x =? n then 0 else c x.

(* the task that counts n is consumed, its weight still owed to the counters *)
Lemma PIX_count_virtual dw dww dpw ex p cn co n nd :
  PIX dw dww dpw ex p cn co -> sget (store p) n = Some nd -> cn n = 1 ->
  PIX (dw - pweight nd) (dww - pweight nd) dpw (fun x => ex x \/ x = n) p (clear_at cn n) co.
Proof.
  intros HP Es Hc. destruct (PIX_node n nd HP Es) as ((_ & R) & V & A & Rt & F & _).
  assert (E0 : clear_at cn n n = 0) by (unfold clear_at; rewrite Z.eqb_refl; reflexivity).
  assert (Hn : node_inv nd (clear_at cn n n) (co n) (linked p n) (ex n \/ n = n)).
  { rewrite E0. split; [split; [lia|exact R]|]. split; [exact V|]. split; [intros H; split; [apply (A H)|tauto]|].
    split; [exact Rt|]. split; [discriminate|]. intros L. elim (pending_not_linked n HP ltac:(lia) L). }
  pose proof (PIX_set_node _ _ _ ex (fun x => ex x \/ x = n) p cn co (clear_at cn n) co n nd HP
                ltac:(intros x N; unfold clear_at; replace (x =? n) with false by lia; tauto) Hn
                ltac:(intros _; rewrite (node_of_some p n nd Es); reflexivity)) as H.
  cbv zeta in H. rewrite Es in H. cbn [wt_of] in H.
  apply (PIX_ext _ _ _ _ (set_node p n nd)); try reflexivity; [symmetry; apply sset_same; exact Es|].
  revert H. apply PIX_offsets; unfold wt, s_all, s_tag, coef; rewrite E0, Hc, ?(F Hc); unfold QWINDOW, QPROTECTED; cbn [Z.eqb Pos.eqb]; destruct (pstate nd =? DEAD); lia.
Qed.

Lemma PIX_co_clear dw dww dpw ex p cn co old :
  PIX dw dww dpw ex p cn co -> (forall nd, sget (store p) old = Some nd -> pstate nd <> RETIRED) ->
  PIX dw dww dpw ex p cn (clear_at co old).
Proof.
  intros [H1 H2 H3 H4 H5 H6 H7 H8 H9 H10 H11 H12 H13 H14] Hd. unfold clear_at.
  constructor; try assumption.
  - intros x Hx. destruct (H6 x Hx) as [A B]. split; [exact A|]. destruct (x =? old); [reflexivity|exact B].
  - intros x. destruct (H7 x) as [A B]. split; [exact A|]. destruct (x =? old); lia.
  - intros x nd Hs Ha. destruct (H8 x nd Hs Ha) as [A B]. split; [destruct (x =? old); [reflexivity|exact A]|exact B].
  - intros x nd Hs Hr. destruct (x =? old) eqn:E; [|exact (H9 x nd Hs Hr)].
    assert (x = old) by lia. subst x. exfalso. exact (Hd nd Hs Hr).
Qed.

Definition tagw (q t w : Z) : Z := if t =? q then w else 0.

Definition retag (nd : pnode) (q : Z) : pnode := mkPnode (pkey nd) (pweight nd) (pstate nd) q.

Lemma set_queue_of_some p n nd q : sget (store p) n = Some nd -> set_queue_of p n q = set_node p n (retag nd q).
Proof. intros Es. unfold set_queue_of. rewrite (node_of_some p n nd Es). reflexivity. Qed.

Lemma PIX_retag dw dww dpw ex p cn co n nd q :
  PIX dw dww dpw ex p cn co -> sget (store p) n = Some nd -> ~ linked p n -> cn n = 0 -> pstate nd <> DEAD ->
  vq q ->
  PIX dw (dww + tagw QWINDOW (pqueue nd) (pweight nd) - tagw QWINDOW q (pweight nd))
         (dpw + tagw QPROTECTED (pqueue nd) (pweight nd) - tagw QPROTECTED q (pweight nd))
      ex (set_queue_of p n q) cn co.
Proof.
  intros HP Es Hnl Hc Hd Hq. rewrite (set_queue_of_some p n nd q Es).
  assert (Hn : node_inv (retag nd q) (cn n) (co n) (linked p n) (ex n)).
  { destruct (PIX_node n nd HP Es) as (R & (S & _) & A & Rt & _ & _).
    split; [exact R|]. split; [split; [exact S|exact Hq]|]. split; [exact A|]. split; [exact Rt|]. split; [lia|]. intros L. contradiction. }
  pose proof (PIX_set_node _ _ _ ex ex p cn co cn co n (retag nd q) HP ltac:(intros x N; tauto) Hn ltac:(intros L; contradiction)) as H.
  cbv zeta in H. rewrite Es in H. cbn [wt_of] in H. revert H.
  apply PIX_offsets; unfold wt, s_all, s_tag, tagw, coef; cbn [retag pstate pqueue pweight];
    replace (cn n =? 0) with true by lia; replace (pstate nd =? DEAD) with false by lia.
  - lia.
  - destruct (pqueue nd =? QWINDOW), (q =? QWINDOW); lia.
  - destruct (pqueue nd =? QPROTECTED), (q =? QPROTECTED); lia.
Qed.

Lemma PIX_pol_add dw dww dpw hashf (ex ex' : Z -> Prop) p cn co n :
  PIX dw dww dpw ex p cn co -> cn n = 1 -> (forall x, x <> n -> ex x -> ex' x) ->
  PIX dw dww dpw ex' (fst (pol_add hashf p n)) (clear_at cn n) co.
Proof.
  intros HP Hc Hex'.
  assert (Hex : forall x, x <> n -> ex x \/ x = n -> ex' x) by (intros x N [E|E]; [exact (Hex' x N E)|contradiction]).
  destruct (pending_present n HP ltac:(lia)) as [nd Es].
  pose proof (pending_not_linked n HP ltac:(lia)) as Hnl.
  pose proof (PIX_count_virtual _ _ _ ex p cn co n nd HP Es Hc) as H1.
  unfold pol_add. rewrite (node_of_some p n nd Es).
  set (p1 := with_sizes p (wrapu (wsize p + pweight nd)) (wrapu (wwsize p + pweight nd)) (pwsize p)).
  set (p2 := if wsize p1 >=? Z.shiftr (maxi p1) 1 then _ else p1).
  set (p3 := with_sketch p2 _).
  (* only the sketch differs between p1 and p3 *)
  assert (E3 : exists s, p3 = with_sketch p1 s) by (unfold p3, p2; destruct (wsize p1 >=? Z.shiftr (maxi p1) 1); eexists; reflexivity).
  destruct E3 as (s & E3). clearbody p3. subst p3.
  set (p3 := with_sketch p1 s).
  assert (H3 : PIX dw dww dpw (fun x => ex x \/ x = n) p3 (clear_at cn n) co).
  { apply (PIX_counters _ _ _ _ _ _ _ p) with (8 := H1); try reflexivity; intros S HS; cbn [p3 p1 with_sketch with_sizes wsize wwsize pwsize];
      rewrite HS, ?wrapu_add_l; f_equal; lia. }
  destruct (negb (pstate nd =? ALIVE)) eqn:Ea; cbn [fst].
  { apply (PIX_shrink_ex _ _ _ (fun x => ex x \/ x = n)); [|exact H3].
    intros x n0 Hs Ha _ E. left. apply Hex; [|exact E]. intros ->.
    change (sget (store p) n = Some n0) in Hs. rewrite Es in Hs. injection Hs as <-. lia. }
  assert (Ht : tracked p3 (clear_at cn n) QWINDOW n).
  { exists nd. split; [exact Es|]. split; [exact (pi_fresh _ _ _ _ _ _ _ HP n nd Es Hc)|]. split; [unfold ALIVE, DEAD in *; lia|].
    unfold clear_at. rewrite Z.eqb_refl. reflexivity. }
  assert (Hnw : ~ In n (qwin p3)) by (intros X; apply Hnl; left; exact X).
  pose proof (PIX_nodup_queue QWINDOW H3) as Nw.
  destruct (pweight nd >? maxi p3) eqn:Eo; cbn [fst].
  - exact (PIX_pol_evict _ _ _ _ _ p3 _ co n H3 Hex).
  - destruct (pweight nd >? wmax p3); cbn [fst].
    + apply (PIX_link _ _ _ _ _ p3 _ _ QWINDOW n (dq_push_front (qwin p3) n) H3 vq_win Ht Hex).
      * constructor; assumption.
      * intros x. cbn. intuition.
    + apply (PIX_link _ _ _ _ _ p3 _ _ QWINDOW n (dq_push_back (qwin p3) n) H3 vq_win Ht Hex); apply push_back_spec; assumption.
Qed.

Lemma PIX_replace dw dww dpw ex p cn co n nd old q :
  PIX dw dww dpw ex p cn co -> sget (store p) n = Some nd -> pqueue nd = q -> pstate nd <> DEAD -> cn n = 0 ->
  ~ linked p n -> n <> old ->
  (forall od, sget (store p) old = Some od -> pstate od <> ALIVE) ->
  vq q -> In old (queue_of p q) ->
  let p' := set_queue p q (dq_update (queue_of p q) n old) in
  PIX dw dww dpw (fun x => ex x /\ x <> n) p' cn co /\ ~ linked p' old /\ linked p' n.
Proof.
  intros HP Es Hq Hd Hc Hnl Hne Hold Hqq Hin p'.
  assert (Hnq : ~ In n (queue_of p q)) by (intros X; apply Hnl, linked_queue; exists q; split; assumption).
  split; [|split].
  - apply (PIX_set_queue _ _ _ ex); [exact HP|exact Hqq|apply nodup_dq_update; [exact (PIX_nodup_queue q HP)|exact Hnq]| |].
    + intros x Hx. apply in_dq_update in Hx. destruct Hx as [[Hx _]|[-> _]]; [left; exact Hx|right]. exists nd. repeat split; assumption.
    + intros x n0 Hs Ha Hx Hor. apply in_dq_update. destruct (Z.eq_dec x n) as [E|N]; [right; split; assumption|left].
      split; [tauto|]. intros ->. exact (Hold n0 Hs Ha).
  - intros L. apply (linked_set_queue p q _ old Hqq) in L. destruct L as [L|(q0 & Hq0 & N & L)].
    + apply in_dq_update in L. destruct L as [[_ L]|[L _]]; congruence.
    + apply N. rewrite <- (PIX_own_queue old q0 HP Hq0 L). exact (PIX_own_queue old q HP Hqq Hin).
  - apply (linked_set_queue p q _ n Hqq). left. apply in_dq_update. right. split; [reflexivity|exact Hin].
Qed.

Lemma PIX_reorder dw dww dpw ex p cn co q id :
  PIX dw dww dpw ex p cn co -> PIX dw dww dpw ex (reorder p q id) cn co.
Proof.
  intros HP. unfold reorder. destruct (queue_norm q) as (q' & Hq & Hn). destruct (Hn p) as [-> ->].
  destruct (dq_contains (queue_of p q') id) eqn:E; [|exact HP]. apply dq_contains_in in E.
  apply PIX_perm_queue; [exact HP|exact Hq|apply nodup_move_to_back, (PIX_nodup_queue q' HP)|].
  intros x. apply in_move_to_back. exact E.
Qed.

Lemma move_to_some p id nd q2 : sget (store p) id = Some nd ->
  move_to p id q2 = let pm := set_queue p (pqueue nd) (dq_delete (queue_of p (pqueue nd)) id) in
                    set_queue (set_node pm id (retag nd q2)) q2 (dq_push_back (queue_of pm q2) id).
Proof.
  intros Es. unfold move_to. rewrite (node_of_some p id nd Es). cbv zeta.
  rewrite (set_queue_of_some _ id nd q2) by (rewrite store_set_queue; exact Es). reflexivity.
Qed.

Lemma PIX_move_to dw dww dpw ex p cn co id nd q2 :
  PIX dw dww dpw ex p cn co -> sget (store p) id = Some nd -> linked p id ->
  vq q2 -> q2 <> pqueue nd ->
  PIX dw (dww + tagw QWINDOW (pqueue nd) (pweight nd) - tagw QWINDOW q2 (pweight nd))
         (dpw + tagw QPROTECTED (pqueue nd) (pweight nd) - tagw QPROTECTED q2 (pweight nd)) ex (move_to p id q2) cn co.
Proof.
  intros HP Es Hl Hq2 Hne. rewrite (move_to_some p id nd q2 Es). cbv zeta.
  destruct (linked_tracked id HP Hl) as (nd0 & Es0 & Hv & _ & Hd & Hc). rewrite Es in Es0. injection Es0 as <-.
  destruct (PIX_unlink dw dww dpw ex p cn co id HP) as [H1 H2]. cbv zeta in H1, H2. rewrite (own_queue_tag p id nd Es Hv) in H1, H2.
  set (pm := set_queue p (pqueue nd) _) in *.
  assert (Esm : sget (store pm) id = Some nd) by (unfold pm; rewrite store_set_queue; exact Es).
  pose proof (PIX_retag _ _ _ _ pm cn co id nd q2 H1 Esm H2 Hc Hd Hq2) as H3. rewrite (set_queue_of_some pm id nd q2 Esm) in H3.
  assert (Hnq : ~ In id (queue_of pm q2)) by (intros X; apply H2, linked_queue; exists q2; split; assumption).
  apply (PIX_link _ _ _ _ _ _ _ _ q2 id _ H3 Hq2); [|tauto|apply push_back_spec..]; try exact (PIX_nodup_queue q2 H1); try exact Hnq.
  exists (retag nd q2). cbn [set_node with_store store]. rewrite sget_sset_same. repeat split; assumption.
Qed.

Lemma PIX_reorder_probation dw dww dpw ex p cn co id :
  PIX dw dww dpw ex p cn co -> PIX dw dww dpw ex (reorder_probation p id) cn co.
Proof.
  intros HP. unfold reorder_probation.
  destruct (dq_contains (qprob p) id) eqn:Ec; cbn [negb]; [|exact HP]. apply dq_contains_in in Ec.
  destruct (pi_prob _ _ _ _ _ _ _ HP id Ec) as (nd & Es & Hq & Hd & Hc). rewrite (node_of_some p id nd Es).
  destruct (pweight nd >? pmax p); [apply PIX_reorder; exact HP|].
  pose proof (PIX_move_to dw dww dpw ex p cn co id nd QPROTECTED HP Es ltac:(right; left; exact Ec) vq_prot ltac:(rewrite Hq; discriminate)) as HM.
  rewrite (move_to_some p id nd _ Es), Hq in HM. cbv zeta. rewrite (set_queue_of_some _ id nd QPROTECTED) by exact Es.
  eapply PIX_counters with (8 := HM); try reflexivity; [apply cstep_same..|apply (cstep_add (pweight nd))]; try reflexivity; unfold tagw; cbn; lia.
Qed.

Lemma PIX_pol_access hashf dw dww dpw ex p cn co id :
  PIX dw dww dpw ex p cn co -> PIX dw dww dpw ex (pol_access hashf p id) cn co.
Proof.
  intros HP. unfold pol_access.
  set (p1 := with_sketch p _).
  assert (H1 : PIX dw dww dpw ex p1 cn co) by (apply (PIX_ext _ _ _ _ p); try reflexivity; exact HP).
  destruct (pqueue (node_of p id) =? QWINDOW); [apply PIX_reorder; exact H1|].
  destruct (pqueue (node_of p id) =? QPROBATION); [apply PIX_reorder_probation; exact H1|].
  destruct (pqueue (node_of p id) =? QPROTECTED); [apply PIX_reorder; exact H1|exact H1].
Qed.

Lemma contains_linked dw dww dpw ex p cn co old :
  PIX dw dww dpw ex p cn co -> pol_contains p old = true ->
  exists od, sget (store p) old = Some od /\ In old (queue_of p (pqueue od)) /\
             vq (pqueue od) /\ pstate od <> DEAD /\ cn old = 0 /\ linked p old.
Proof.
  intros HP Hc. apply dq_contains_in in Hc.
  assert (Hl : linked p old) by (apply linked_queue; exists (own_queue p old); split; [apply own_queue_vq|exact Hc]).
  destruct (linked_tracked old HP Hl) as (od & Es & Hv & Hin & Hd & Hcn). exists od. repeat split; assumption.
Qed.

Lemma PIX_update_node dw dww dpw ex p cn co n ndn old :
  PIX dw dww dpw ex p cn co -> sget (store p) n = Some ndn -> pstate ndn = ALIVE -> cn n = 1 -> co old = 1 ->
  pol_contains p old = true ->
  exists q, vq q /\
    pqueue (node_of (pol_update_node p n old) n) = q /\
    PIX (dw - pweight ndn) (dww - tagw QWINDOW q (pweight ndn)) (dpw - tagw QPROTECTED q (pweight ndn)) ex
        (pol_update_node p n old) (clear_at cn n) (clear_at co old).
Proof.
  intros HP Esn Ha Hcn Hco Hcont.
  destruct (contains_linked _ _ _ _ _ _ _ old HP Hcont) as (od & Eso & Hino & Hv & Hdo & Hcno & Hlo).
  assert (Hne : n <> old) by (intros ->; lia).
  assert (Hnl : ~ linked p n) by (apply (pending_not_linked n HP); lia).
  assert (Holdna : pstate od <> ALIVE) by (intros A; destruct (pi_alive _ _ _ _ _ _ _ HP old od Eso A) as [B _]; lia).
  assert (Htagn : pqueue ndn = QWINDOW) by exact (pi_fresh _ _ _ _ _ _ _ HP n ndn Esn Hcn).
  assert (Hcc : clear_at cn n n = 0) by (unfold clear_at; rewrite Z.eqb_refl; reflexivity).
  assert (Hdn : pstate ndn <> DEAD) by (unfold ALIVE, DEAD in *; lia).
  exists (pqueue od). split; [exact Hv|].
  pose proof (PIX_count_virtual _ _ _ _ _ _ _ n ndn HP Esn Hcn) as HA.
  pose proof (PIX_retag _ _ _ _ p _ co n ndn (pqueue od) HA Esn Hnl Hcc Hdn Hv) as HB.
  unfold pol_update_node. rewrite (node_of_some p old od Eso), (set_queue_of_some p n ndn _ Esn) in *.
  set (p1 := set_node p n (retag ndn (pqueue od))) in *.
  assert (Esn1 : sget (store p1) n = Some (retag ndn (pqueue od))) by apply sget_sset_same.
  assert (Eso1 : forall x, sget (store p1) old = Some x -> pstate x <> ALIVE).
  { intros x Hx. cbn [p1 set_node with_store store] in Hx. rewrite sget_sset_other, Eso in Hx by congruence. injection Hx as <-. exact Holdna. }
  rewrite (own_queue_tag p1 n _ Esn1 Hv). cbn [retag pqueue].
  destruct (PIX_replace _ _ _ _ p1 _ co n _ old (pqueue od) HB Esn1 eq_refl Hdn Hcc Hnl Hne Eso1 Hv Hino) as (HC & Hnlo & _).
  cbv zeta in HC, Hnlo.
  set (p2 := set_queue p1 (pqueue od) (dq_update (queue_of p1 (pqueue od)) n old)) in *.
  assert (Esn3 : sget (store (make_dead p2 old)) n = Some (retag ndn (pqueue od))).
  { assert (E2 : sget (store p2) n = Some (retag ndn (pqueue od))) by (unfold p2; rewrite store_set_queue; exact Esn1).
    unfold make_dead. destruct (pstate (node_of p2 old) =? DEAD); [exact E2|].
    cbn [set_state_of set_node with_store with_sizes store]. rewrite sget_sset_other by exact Hne. exact E2. }
  split; [rewrite (node_of_some _ n _ Esn3); reflexivity|].
  apply PIX_co_clear; [|intros x Hx; rewrite (make_dead_state p2 old x Hx); discriminate].
  generalize (PIX_make_dead _ _ _ _ ex p2 _ co old HC Hnlo ltac:(intros x _ [[E|E] N]; [exact E|contradiction])).
  apply PIX_offsets; rewrite ?Htagn; [reflexivity|change (tagw QWINDOW QWINDOW (pweight ndn)) with (pweight ndn); lia|change (tagw QPROTECTED QWINDOW (pweight ndn)) with 0; lia].
Qed.

Lemma PIX_pol_update hashf dw dww dpw ex p cn co n old :
  PIX dw dww dpw ex p cn co -> cn n = 1 -> co old = 1 ->
  PIX dw dww dpw ex (fst (pol_update hashf p n old)) (clear_at cn n) (clear_at co old).
Proof.
  intros HP Hcn Hco. unfold pol_update.
  destruct (pending_present n HP ltac:(lia)) as [ndn Esn].
  destruct (negb (pstate (node_of p n) =? ALIVE) || negb (pol_contains p old)) eqn:Ecase.
  - (* out of order: delete old, add n *)
    destruct (PIX_pol_delete _ _ _ ex ex p cn co old HP (fun _ _ E => E)) as [H1 _].
    apply (PIX_co_clear _ _ _ _ _ _ _ old) in H1; [|intros x Hx; unfold pol_delete in Hx; rewrite (make_dead_state _ old x Hx); discriminate].
    exact (PIX_pol_add _ _ _ hashf ex ex (pol_delete p old) cn (clear_at co old) n H1 Hcn (fun _ _ E => E)).
  - apply orb_false_iff in Ecase. destruct Ecase as [Ea Ec].
    rewrite (node_of_some p n ndn Esn) in Ea |- *.
    destruct (PIX_update_node _ _ _ ex p cn co n ndn old HP Esn ltac:(lia) Hcn Hco ltac:(destruct (pol_contains p old); [reflexivity|discriminate]))
      as (q & Hq & -> & HU).
    set (p1 := pol_update_node p n old) in *. set (w := pweight ndn) in *. set (cn' := clear_at cn n) in *. set (co' := clear_at co old) in *.
    (* the weight enters the counter of n's queue now, the total at the end *)
    assert (Hfin : forall p2, PIX (dw - w) dww dpw ex p2 cn' co' -> PIX dw dww dpw ex (with_sizes p2 (wrapu (wsize p2 + w)) (wwsize p2) (pwsize p2)) cn' co').
    { intros p2 H2. eapply PIX_counters with (8 := H2); try reflexivity; [apply (cstep_add w)|apply cstep_same..]; try reflexivity; lia. }
    assert (Hevict : forall p2, PIX (dw - w) dww dpw ex p2 cn' co' -> PIX (dw - w) dww dpw ex (pol_evict p2 n) cn' co').
    { intros p2 H2. exact (PIX_pol_evict _ _ _ ex ex p2 _ _ n H2 (fun _ _ E => E)). }
    destruct Hq as [-> | [-> | ->]]; unfold QWINDOW, QPROBATION, QPROTECTED in *; cbn [Z.eqb Pos.eqb].
    + set (p1w := with_sizes p1 (wsize p1) (wrapu (wwsize p1 + w)) (pwsize p1)).
      assert (HW : PIX (dw - w) dww dpw ex p1w cn' co').
      { eapply PIX_counters with (8 := HU); try reflexivity; [apply cstep_same|apply (cstep_add w)|apply cstep_same]; try reflexivity; unfold tagw; cbn; lia. }
      destruct (w >? maxi p1w); [cbn [fst]; apply Hfin, Hevict, HW|].
      destruct (w <=? wmax p1w); [cbn [fst]; apply Hfin, PIX_pol_access, HW|].
      destruct (dq_contains (qwin p1w) n) eqn:Ecw; cbn [fst]; apply Hfin; [|exact HW]. apply dq_contains_in in Ecw.
      apply (PIX_perm_queue _ _ _ _ p1w _ _ 0 _ HW vq_win); [apply nodup_move_to_front, (PIX_nodup_queue 0 HW)|].
      intros x. apply in_move_to_front. exact Ecw.
    + assert (HW : PIX (dw - w) dww dpw ex p1 cn' co').
      { revert HU. apply PIX_offsets; unfold tagw; cbn; lia. }
      destruct (w <=? maxi p1); cbn [fst]; apply Hfin; [apply PIX_pol_access|apply Hevict]; exact HW.
    + set (p1p := with_sizes p1 (wsize p1) (wwsize p1) (wrapu (pwsize p1 + w))).
      assert (HW : PIX (dw - w) dww dpw ex p1p cn' co').
      { eapply PIX_counters with (8 := HU); try reflexivity; [apply cstep_same..|apply (cstep_add w)]; try reflexivity; unfold tagw; cbn; lia. }
      destruct (w <=? maxi p1p); cbn [fst]; apply Hfin; [apply PIX_pol_access|apply Hevict]; exact HW.
Qed.

(* the nodes it retags are present: the store keeps its size *)
Lemma PIX_evict_from_window dw dww dpw ex cn co fuel : forall p cursor first,
  PIX dw dww dpw ex p cn co -> (forall id, cursor = Some id -> In id (qwin p)) ->
  PIX dw dww dpw ex (fst (evict_from_window fuel p cursor first)) cn co /\
  store_size (fst (evict_from_window fuel p cursor first)) = store_size p.
Proof.
  induction fuel as [|f IH]; intros p cursor first HP Hcur; pose proof (conj HP (eq_refl (store_size p))) as H0;
    cbn [evict_from_window]; [exact H0|].
  destruct (wwsize p >? wmax p); [|exact H0].
  destruct cursor as [id|]; [|exact H0].
  specialize (Hcur id eq_refl).
  destruct (pi_win _ _ _ _ _ _ _ HP id Hcur) as (nd & Es & Hq & Hd & Hc).
  pose proof (PIX_nodup_queue QWINDOW HP) as Na.
  rewrite (node_of_some p id nd Es).
  destruct (negb (pweight nd =? 0)) eqn:Ew.
  - pose proof (PIX_move_to dw dww dpw ex p cn co id nd QPROBATION HP Es ltac:(left; exact Hcur) vq_prob ltac:(rewrite Hq; discriminate)) as HM.
    rewrite (move_to_some p id nd _ Es), Hq in HM. rewrite (set_queue_of_some p id nd QPROBATION Es).
    set (p3 := with_sizes _ _ _ _).
    assert (E3 : store_size p3 = store_size p) by (apply (sset_length_present (store p) id (retag nd QPROBATION)); rewrite Es; discriminate).
    rewrite <- E3. apply IH.
    + eapply PIX_counters with (8 := HM); try reflexivity; [apply cstep_same|apply (cstep_add (- pweight nd))|apply cstep_same]; try reflexivity; unfold tagw; cbn; lia.
    + intros x Hx. apply in_dq_delete. exact (dq_next_in (qwin p) id x Na Hx).
  - apply IH; [exact HP|]. intros x Hx. apply (dq_next_in (qwin p) id x Na Hx).
Qed.

Lemma PIX_evict_from_main dw dww dpw ex cn co hashf rnd fuel : forall p cu acc,
  PIX dw dww dpw ex p cn co -> PIX dw dww dpw ex (fst (evict_from_main fuel hashf rnd p cu acc)) cn co.
Proof.
  induction fuel as [|f IH]; intros p cu acc HP; cbn [evict_from_main]; [exact HP|].
  destruct (ef_step hashf rnd p cu) as [|cu'|id cu']; [exact HP|apply IH; exact HP|].
  apply IH. exact (PIX_pol_evict _ _ _ ex ex p cn co id HP (fun _ _ E => E)).
Qed.

Lemma PIX_pol_evict_nodes dw dww dpw ex cn co hashf rnd p :
  PIX dw dww dpw ex p cn co -> PIX dw dww dpw ex (fst (pol_evict_nodes hashf rnd p)) cn co.
Proof.
  intros HP. unfold pol_evict_nodes.
  destruct (PIX_evict_from_window dw dww dpw ex cn co (2 * store_size p + 8) p (dq_head (qwin p)) None HP
              ltac:(intros id H; apply dq_head_in; exact H)) as [H1 _].
  destruct (evict_from_window (2 * store_size p + 8) p (dq_head (qwin p)) None) as [p1 first]. cbn [fst] in H1.
  apply PIX_evict_from_main. exact H1.
Qed.

(* [d]: weight already taken off the loop's local copy of the counter, not yet off the field *)
Lemma PIX_demote_loop dw dww ex cn co fuel : forall p pws dpw d,
  PIX dw dww (dpw + d) ex p cn co -> pws = wrapu (pwsize p - d) ->
  let r := demote_loop fuel p pws in
  exists d', PIX dw dww (dpw + d') ex (fst r) cn co /\ snd r = wrapu (pwsize (fst r) - d').
Proof.
  induction fuel as [|f IH]; intros p pws dpw d HP Hpws; cbn [demote_loop]; cbv zeta.
  - exists d. split; assumption.
  - destruct (pws <=? pmax p); [exists d; split; assumption|].
    destruct (qprot p) as [|id rest] eqn:Eq; [exists d; split; assumption|].
    assert (Hin : In id (qprot p)) by (rewrite Eq; left; reflexivity).
    destruct (pi_prot _ _ _ _ _ _ _ HP id Hin) as (nd & Es & Hq & Hd & Hc).
    pose proof (PIX_nodup_queue QPROTECTED HP) as Nc. change (queue_of p QPROTECTED) with (qprot p) in Nc.
    rewrite Eq in Nc. apply NoDup_cons_iff in Nc.
    pose proof (PIX_move_to dw dww (dpw + d) ex p cn co id nd QPROBATION HP Es ltac:(right; right; exact Hin) vq_prob ltac:(rewrite Hq; discriminate)) as HM.
    rewrite (move_to_some p id nd _ Es), Hq in HM. cbv zeta in HM. change (queue_of p QPROTECTED) with (qprot p) in HM.
    rewrite Eq, (dq_delete_head rest id (proj1 Nc)) in HM.
    rewrite (node_of_some p id nd Es), (set_queue_of_some _ id nd QPROBATION) by exact Es.
    apply (IH _ _ dpw (d + pweight nd)).
    + eapply PIX_counters with (8 := HM); try reflexivity; apply cstep_same; try reflexivity; unfold tagw; cbn; lia.
    + rewrite Hpws, wrapu_sub_l. f_equal. cbn [set_node with_store with_queues pwsize]. lia.
Qed.

Lemma PIX_pol_climb dw dww dpw ex cn co p : PIX dw dww dpw ex p cn co -> PIX dw dww dpw ex (pol_climb p) cn co.
Proof.
  intros HP. unfold pol_climb, pol_demote. destruct (pwsize p <=? pmax p); [exact HP|].
  destruct (PIX_demote_loop dw dww ex cn co 1000 p (pwsize p) dpw 0) as (d' & H1 & H2).
  { revert HP. apply PIX_offsets; lia. }
  { rewrite Z.sub_0_r, (pi_pwsize _ _ _ _ _ _ _ HP). symmetry. apply wrapu_idem. }
  cbv zeta in H1, H2. destruct (demote_loop 1000 p (pwsize p)) as [p1 pws]. cbn [fst snd] in *.
  eapply PIX_counters with (8 := H1); try reflexivity; [apply cstep_same..|apply (cstep_add (- d'))]; try reflexivity; try lia. exact H2.
Qed.

Lemma PIX_with_maxima dw dww dpw ex p cn co m wm pm :
  PIX dw dww dpw ex p cn co -> PIX dw dww dpw ex (with_maxima p m wm pm) cn co.
Proof. apply PIX_ext; reflexivity. Qed.

Lemma PIX_increase_loop dw dww dpw ex cn co fuel : forall p quota,
  PIX dw dww dpw ex p cn co -> PIX dw dww dpw ex (fst (increase_loop fuel p quota)) cn co.
Proof.
  induction fuel as [|f IH]; intros p quota HP; cbn [increase_loop]; [exact HP|].
  (* whichever deque the candidate heads *)
  assert (Hcase : forall c (isprob : bool), In c (queue_of p (if isprob then QPROBATION else QPROTECTED)) ->
            PIX dw dww dpw ex (fst (let w := pweight (node_of p c) in
                 if quota <? w then (p, quota) else
                 let p1 := move_to p c QWINDOW in
                 let p2 := with_sizes p1 (wsize p1) (wrapu (wwsize p1 + w)) (if isprob then pwsize p1 else wrapu (pwsize p1 - w)) in
                 increase_loop f p2 (quota - w))) cn co).
  { intros c isprob Hin. cbv zeta. remember (if isprob then QPROBATION else QPROTECTED) as q eqn:Eq.
    assert (Hq : vq q /\ QWINDOW <> q) by (subst q; destruct isprob; split; (apply vq_prob || apply vq_prot || discriminate)).
    destruct (PIX_queue q HP (proj1 Hq) c Hin) as (nd & Es & Et & _). rewrite (node_of_some p c nd Es).
    destruct (quota <? pweight nd); [exact HP|]. apply IH.
    pose proof (PIX_move_to dw dww dpw ex p cn co c nd QWINDOW HP Es ltac:(apply linked_queue; exists q; tauto) vq_win
                  ltac:(rewrite Et; tauto)) as HM. rewrite Et, Eq in HM.
    eapply PIX_counters with (8 := HM); try reflexivity.
    - apply cstep_same; [reflexivity|lia].
    - apply (cstep_add (pweight nd)); [reflexivity|]. destruct isprob; unfold tagw; cbn; lia.
    - destruct isprob; [apply cstep_same|apply (cstep_add (- pweight nd))]; try reflexivity; unfold tagw; cbn; lia. }
  destruct (dq_head (qprob p)) as [c|] eqn:Eh.
  - destruct (quota <? pweight (node_of p c)).
    + destruct (dq_head (qprot p)) as [c2|] eqn:Eh2; [|exact HP]. apply (Hcase c2 false). apply dq_head_in. exact Eh2.
    + apply (Hcase c true). apply dq_head_in. exact Eh.
  - destruct (dq_head (qprot p)) as [c2|] eqn:Eh2; [|exact HP]. apply (Hcase c2 false). apply dq_head_in. exact Eh2.
Qed.

Lemma PIX_decrease_loop dw dww dpw ex cn co fuel : forall p quota,
  PIX dw dww dpw ex p cn co -> PIX dw dww dpw ex (fst (decrease_loop fuel p quota)) cn co.
Proof.
  induction fuel as [|f IH]; intros p quota HP; cbn [decrease_loop]; [exact HP|].
  destruct (dq_head (qwin p)) as [c|] eqn:Eh; [|exact HP]. cbv zeta. apply dq_head_in in Eh.
  destruct (pi_win _ _ _ _ _ _ _ HP c Eh) as (nd & Es & Hq & _). rewrite (node_of_some p c nd Es).
  destruct (quota <? pweight nd); [exact HP|]. apply IH.
  pose proof (PIX_move_to dw dww dpw ex p cn co c nd QPROBATION HP Es ltac:(left; exact Eh) vq_prob ltac:(rewrite Hq; discriminate)) as HM.
  rewrite Hq in HM.
  eapply PIX_counters with (8 := HM); try reflexivity; [apply cstep_same|apply (cstep_add (- pweight nd))|apply cstep_same];
    try reflexivity; unfold tagw; cbn; lia.
Qed.

Lemma PIX_pol_climb_adj dw dww dpw ex cn co adj p :
  PIX dw dww dpw ex p cn co -> PIX dw dww dpw ex (fst (pol_climb_adj adj p)) cn co.
Proof.
  intros HP. unfold pol_climb_adj. pose proof (PIX_pol_climb dw dww dpw ex cn co p HP) as H0. unfold pol_climb in H0.
  destruct (adj =? 0); [exact H0|]. destruct (adj >? 0).
  - unfold pol_increase_window. destruct (pmax (pol_demote p) =? 0); [exact H0|]. cbv zeta.
    set (q0 := if pmax (pol_demote p) <? adj then pmax (pol_demote p) else adj).
    set (p1 := with_maxima (pol_demote p) _ _ _).
    pose proof (PIX_increase_loop dw dww dpw ex cn co 1000 (pol_demote p1) q0 (PIX_pol_climb _ _ _ _ _ _ p1 (PIX_with_maxima _ _ _ _ _ _ _ _ _ _ H0))) as H3.
    destruct (increase_loop 1000 (pol_demote p1) q0) as [p3 quota]. apply PIX_with_maxima. exact H3.
  - unfold pol_decrease_window. destruct (wmax (pol_demote p) <=? 1); [exact H0|]. cbv zeta.
    set (q0 := if wmax (pol_demote p) - 1 <? - adj then wmax (pol_demote p) - 1 else - adj).
    set (p1 := with_maxima (pol_demote p) _ _ _).
    pose proof (PIX_decrease_loop dw dww dpw ex cn co 1000 p1 q0 (PIX_with_maxima _ _ _ _ _ _ _ _ _ _ H0)) as H3.
    destruct (decrease_loop 1000 p1 q0) as [p2 quota]. apply PIX_with_maxima. exact H3.
Qed.

Definition as_new (t : task) (id : Z) : bool :=
  match t with TAdd n => n =? id | TUpd n _ => n =? id | TDel _ => false end.
Definition as_old (t : task) (id : Z) : bool :=
  match t with TAdd _ => false | TUpd _ o => o =? id | TDel n => n =? id end.

Fixpoint cnew (l : list task) (id : Z) : Z :=
  match l with [] => 0 | t :: l' => (if as_new t id then 1 else 0) + cnew l' id end.
Fixpoint cold (l : list task) (id : Z) : Z :=
  match l with [] => 0 | t :: l' => (if as_old t id then 1 else 0) + cold l' id end.

Lemma cnew_app a b id : cnew (a ++ b) id = cnew a id + cnew b id.
Proof. induction a as [|t a IH]; cbn [app cnew]; lia. Qed.
Lemma cold_app a b id : cold (a ++ b) id = cold a id + cold b id.
Proof. induction a as [|t a IH]; cbn [app cold]; lia. Qed.
Lemma cnew_nonneg l id : 0 <= cnew l id.
Proof. induction l as [|t l IH]; cbn [cnew]; [lia|]. destruct (as_new t id); lia. Qed.
Lemma cold_nonneg l id : 0 <= cold l id.
Proof. induction l as [|t l IH]; cbn [cold]; [lia|]. destruct (as_old t id); lia. Qed.

Lemma count_one_new (fl ts : list task) (t : task) id :
  cnew (fl ++ t :: ts) id = cnew (fl ++ ts) id + (if as_new t id then 1 else 0).
Proof. rewrite !cnew_app. cbn [cnew]. lia. Qed.
Lemma count_one_old (fl ts : list task) (t : task) id :
  cold (fl ++ t :: ts) id = cold (fl ++ ts) id + (if as_old t id then 1 else 0).
Proof. rewrite !cold_app. cbn [cold]. lia. Qed.

Lemma consumed_at (c c' : Z -> Z) n : (forall id, c' id = c id + (if n =? id then 1 else 0)) -> 0 <= c n -> c' n <= 1 ->
  c' n = 1 /\ forall id, c id = clear_at c' n id.
Proof.
  intros H H0 H1. pose proof (H n) as Hn. rewrite Z.eqb_refl in Hn. split; [lia|]. intros id. unfold clear_at. specialize (H id).
  destruct (id =? n) eqn:E; [assert (id = n) by lia; subst id; lia|replace (n =? id) with false in H by lia; lia].
Qed.

Lemma created_at (c c' : Z -> Z) n : (forall id, c' id = c id + (if n =? id then 1 else 0)) -> c n = 0 ->
  forall id, c' id = if id =? n then 1 else c id.
Proof.
  intros H H0 id. rewrite (H id). destruct (id =? n) eqn:E; [assert (id = n) by lia; subst id; rewrite Z.eqb_refl; lia|replace (n =? id) with false by lia; lia].
Qed.

Lemma PIX_cn_ext dw dww dpw ex p cn co cn' co' :
  (forall id, cn' id = cn id) -> (forall id, co' id = co id) -> PIX dw dww dpw ex p cn co -> PIX dw dww dpw ex p cn' co'.
Proof.
  intros Ecn Eco [H1 H2 H3 H4 H5 H6 H7 H8 H9 H10 H11 H12 H13 H14].
  assert (Hq : forall d q, in_queue_ok p cn d q -> in_queue_ok p cn' d q).
  { intros d q Hd x Hx. destruct (Hd x Hx) as (n0 & A & B & C & D). exists n0. rewrite Ecn. repeat split; assumption. }
  assert (Hs : forall sel, ssum (wt sel cn) (store p) = ssum (wt sel cn') (store p)).
  { intros sel. apply ssum_ext. intros i nd. unfold wt, coef. rewrite Ecn. reflexivity. }
  constructor; try assumption; try (apply Hq; assumption).
  - intros x Hx. rewrite Ecn, Eco. exact (H6 x Hx).
  - intros x. rewrite Ecn, Eco. exact (H7 x).
  - intros x nd Hs' Ha. rewrite Ecn, Eco. exact (H8 x nd Hs' Ha).
  - intros x nd Hs' Hr. rewrite Eco. exact (H9 x nd Hs' Hr).
  - intros x nd Hs' Hc. rewrite Ecn in Hc. exact (H10 x nd Hs' Hc).
  - rewrite H12. f_equal. f_equal. exact (Hs s_all).
  - rewrite H13. f_equal. f_equal. exact (Hs (s_tag QWINDOW)).
  - rewrite H14. f_equal. f_equal. exact (Hs (s_tag QPROTECTED)).
Qed.

(* newNode; its add/update task becomes pending *)
Lemma PI_create p cn co n key w :
  PI p cn co -> sget (store p) n = None ->
  PI (set_node p n (mkPnode key w ALIVE QWINDOW)) (fun x => if x =? n then 1 else cn x) co.
Proof.
  intros HP Es. destruct (pi_absent _ _ _ _ _ _ _ HP n Es) as [_ Hco].
  assert (Hnl : ~ linked p n) by (intros L; destruct (linked_tracked n HP L) as (nd & A & _); congruence).
  set (cn' := fun x => if x =? n then 1 else cn x).
  assert (E1 : cn' n = 1) by (unfold cn'; rewrite Z.eqb_refl; reflexivity).
  assert (Hn : node_inv (mkPnode key w ALIVE QWINDOW) (cn' n) (co n) (linked p n) False).
  { rewrite E1. split; [split; [lia|apply (pi_range _ _ _ _ _ _ _ HP n)]|]. split; [split; [left; reflexivity|apply vq_win]|].
    split; [intros _; split; [exact Hco|lia]|]. split; [intros H; discriminate H|]. split; [reflexivity|]. intros L. contradiction. }
  generalize (PIX_set_node 0 0 0 _ (fun _ => False) p cn co cn' co n _ HP
                ltac:(intros x N; unfold cn'; replace (x =? n) with false by lia; tauto) Hn ltac:(intros L; contradiction)).
  cbv zeta. rewrite Es. apply PIX_offsets; unfold wt_of, wt, coef; rewrite E1; cbn [pstate pqueue pweight];
    destruct (s_all QWINDOW), (s_tag QWINDOW QWINDOW), (s_tag QPROTECTED QWINDOW); reflexivity.
Qed.

(* makeRetired; its delete / update-as-old task becomes pending *)
Lemma PI_retire p cn co old nd :
  PI p cn co -> sget (store p) old = Some nd -> pstate nd = ALIVE ->
  PI (set_state_of p old RETIRED) cn (fun x => if x =? old then 1 else co x).
Proof.
  intros HP Es Ha. unfold set_state_of. rewrite (node_of_some p old nd Es).
  set (co' := fun x => if x =? old then 1 else co x). set (nd' := mkPnode (pkey nd) (pweight nd) RETIRED (pqueue nd)).
  assert (E1 : co' old = 1) by (unfold co'; rewrite Z.eqb_refl; reflexivity).
  assert (Hn : node_inv nd' (cn old) (co' old) (linked p old) False).
  { destruct (PIX_node old nd HP Es) as ((R & _) & (_ & V) & _ & _ & F & L). rewrite E1.
    split; [split; [exact R|lia]|]. split; [split; [right; left; reflexivity|exact V]|].
    split; [intros H; discriminate H|]. split; [reflexivity|]. split; [exact F|]. intros Hl. split; [discriminate|apply (L Hl)]. }
  generalize (PIX_set_node 0 0 0 _ (fun _ => False) p cn co cn co' old nd' HP
                ltac:(intros x N; unfold co'; replace (x =? old) with false by lia; tauto) Hn
                ltac:(intros _; rewrite (node_of_some p old nd Es); reflexivity)).
  cbv zeta. rewrite Es. apply PIX_offsets; unfold wt_of, wt, coef, nd'; cbn [pstate pqueue pweight]; rewrite Ha;
    change (ALIVE =? DEAD) with false; change (RETIRED =? DEAD) with false; lia.
Qed.

Definition MI (m : mstate) (pend : list task) : Prop :=
  m_evict m = true /\ PI (pol m) (cnew pend) (cold pend).

Lemma fold_wheel_delete_pol (ids : list Z) : forall m,
  let m' := fold_left (fun mm id => if m_expire mm then with_whl mm (wheel_delete (whl mm) id) else mm) ids m in
  pol m' = pol m /\ m_evict m' = m_evict m /\ wbuf m' = wbuf m /\ m_expire m' = m_expire m.
Proof.
  induction ids as [|id ids IH]; intros m; cbn [fold_left]; cbv zeta; [repeat split|].
  specialize (IH (if m_expire m then with_whl m (wheel_delete (whl m) id) else m)). cbv zeta in IH.
  destruct IH as (A & B & C & D). rewrite A, B, C, D. destruct (m_expire m) eqn:E; cbn [pol m_evict wbuf m_expire with_whl]; rewrite ?E; repeat split; reflexivity.
Qed.

Lemma MI_with_pol m p ids pend : m_evict m = true -> PI p (cnew pend) (cold pend) ->
  let m' := fold_left (fun mm id => if m_expire mm then with_whl mm (wheel_delete (whl mm) id) else mm) ids (with_pol m p) in
  MI m' pend /\ wbuf m' = wbuf m.
Proof.
  intros He HP. destruct (fold_wheel_delete_pol ids (with_pol m p)) as (A & B & C & _). cbv zeta in *.
  split; [split; [rewrite B; exact He|rewrite A; exact HP]|exact C].
Qed.

Lemma MI_fold (f : mstate -> Z -> mstate) pend :
  (forall m id, MI m pend -> MI (f m id) pend /\ wbuf (f m id) = wbuf m) ->
  forall ids m, MI m pend -> MI (fold_left f ids m) pend /\ wbuf (fold_left f ids m) = wbuf m.
Proof.
  intros Hf. induction ids as [|id ids IH]; intros m HM; cbn [fold_left]; [split; [exact HM|reflexivity]|].
  destruct (Hf m id HM) as [H1 H2]. destruct (IH _ H1) as [H3 H4]. split; [exact H3|rewrite H4; exact H2].
Qed.

Lemma MI_on_access hashf cur m pend id : MI m pend ->
  MI (m_on_access hashf cur m id) pend /\ wbuf (m_on_access hashf cur m id) = wbuf m.
Proof.
  intros [He HP]. unfold m_on_access. rewrite He.
  set (m1 := with_pol m (pol_access hashf (pol m) id)).
  assert (H1 : MI m1 pend) by (split; [exact He|apply PIX_pol_access; exact HP]).
  destruct (m_expire m1 && wheel_mem (whl m1) id); [|split; [exact H1|reflexivity]].
  unfold is_alive. cbn [pol with_whl].
  destruct (pstate (node_of (pol m1) id) =? ALIVE); (split; [exact H1|reflexivity]).
Qed.

Lemma MI_run_task hashf cur m fl t ts :
  MI m (fl ++ t :: ts) ->
  MI (fst (m_run_task hashf cur m t)) (fl ++ ts) /\ wbuf (fst (m_run_task hashf cur m t)) = wbuf m.
Proof.
  intros [He HP]. pose proof (pi_range _ _ _ _ _ _ _ HP) as Hr.
  destruct t as [n|n old|n]; cbn [m_run_task].
  - set (m1 := if m_expire m && is_alive m n then m_wheel_add cur m n else m).
    assert (E1 : pol m1 = pol m /\ m_evict m1 = true /\ wbuf m1 = wbuf m) by (unfold m1; destruct (m_expire m && is_alive m n); repeat split; assumption).
    destruct E1 as (Ep & Ee & Ew). rewrite Ee, Ep, <- Ew.
    destruct (consumed_at _ _ n (count_one_new fl ts (TAdd n)) (cnew_nonneg _ n) (proj2 (proj1 (Hr n)))) as [Hcn En].
    pose proof (PIX_pol_add 0 0 0 hashf _ (fun _ => False) (pol m) _ _ n HP Hcn (fun _ _ E => E)) as H1.
    destruct (pol_add hashf (pol m) n) as [p ev]. cbn [fst] in *. apply (MI_with_pol m1 p ev _ Ee).
    refine (PIX_cn_ext _ _ _ _ _ _ _ _ _ En _ H1). intros id. rewrite count_one_old. symmetry. apply Z.add_0_r.
  - set (m1 := if m_expire m then (let m' := with_whl m (wheel_delete (whl m) old) in if is_alive m' n then m_wheel_add cur m' n else m') else m).
    assert (E1 : pol m1 = pol m /\ m_evict m1 = true /\ wbuf m1 = wbuf m).
    { unfold m1. destruct (m_expire m); [|repeat split; assumption]. cbv zeta.
      destruct (is_alive (with_whl m (wheel_delete (whl m) old)) n); repeat split; assumption. }
    destruct E1 as (Ep & Ee & Ew). rewrite Ee, Ep, <- Ew.
    destruct (consumed_at _ _ n (count_one_new fl ts (TUpd n old)) (cnew_nonneg _ n) (proj2 (proj1 (Hr n)))) as [Hcn En].
    destruct (consumed_at _ _ old (count_one_old fl ts (TUpd n old)) (cold_nonneg _ old) (proj2 (proj2 (Hr old)))) as [Hco Eo].
    pose proof (PIX_pol_update hashf 0 0 0 _ (pol m) _ _ n old HP Hcn Hco) as H1.
    destruct (pol_update hashf (pol m) n old) as [p ev]. cbn [fst] in *. apply (MI_with_pol m1 p ev _ Ee).
    exact (PIX_cn_ext _ _ _ _ _ _ _ _ _ En Eo H1).
  - set (m1 := if m_expire m then with_whl m (wheel_delete (whl m) n) else m).
    assert (E1 : pol m1 = pol m /\ m_evict m1 = true /\ wbuf m1 = wbuf m) by (unfold m1; destruct (m_expire m); repeat split; assumption).
    destruct E1 as (Ep & Ee & Ew). rewrite Ee, Ep. cbn [fst]. split; [|exact Ew]. split; [exact Ee|]. cbn [pol with_pol].
    destruct (consumed_at _ _ n (count_one_old fl ts (TDel n)) (cold_nonneg _ n) (proj2 (proj2 (Hr n)))) as [Hco Eo].
    destruct (PIX_pol_delete 0 0 0 _ (fun _ => False) (pol m) _ _ n HP (fun _ _ E => E)) as [H1 _]. apply (PIX_co_clear _ _ _ _ _ _ _ n) in H1.
    + refine (PIX_cn_ext _ _ _ _ _ _ _ _ _ _ Eo H1). intros id. rewrite count_one_new. symmetry. apply Z.add_0_r.
    + intros x Hx. unfold pol_delete in Hx. rewrite (make_dead_state _ n x Hx). discriminate.
Qed.

Lemma MI_run_tasks hashf cur ts : forall m fl acc,
  MI m (fl ++ ts) ->
  MI (fst (m_run_tasks hashf cur m ts acc)) fl /\ wbuf (fst (m_run_tasks hashf cur m ts acc)) = wbuf m.
Proof.
  induction ts as [|t ts IH]; intros m fl acc HM; cbn [m_run_tasks].
  - rewrite app_nil_r in HM. split; [exact HM|reflexivity].
  - destruct (MI_run_task hashf cur m fl t ts HM) as [H1 H2].
    destruct (m_run_task hashf cur m t) as [m1 ev]. cbn [fst] in *.
    destruct (IH m1 fl (acc ++ ev) H1) as [H3 H4]. split; [exact H3|rewrite H4; exact H2].
Qed.

Lemma MI_evict_node m pend id : MI m pend -> MI (m_evict_node m id) pend /\ wbuf (m_evict_node m id) = wbuf m.
Proof.
  intros [He HP]. unfold m_evict_node. rewrite He.
  set (m1 := with_pol m (pol_delete (pol m) id)).
  set (m2 := if m_expire m1 then with_whl m1 (wheel_delete (whl m1) id) else m1).
  assert (E : pol m2 = pol_delete (pol m) id /\ m_evict m2 = true /\ wbuf m2 = wbuf m) by (unfold m2; destruct (m_expire m1); repeat split; assumption).
  destruct E as (Ep & Ee & Ew). rewrite Ee. split; [|exact Ew]. split; [exact Ee|].
  cbn [pol with_pol]. rewrite Ep.
  exact (PI_evict _ _ _ id HP).
Qed.

Lemma m_maintenance_split hashf cur rnd now adj m :
  m_maintenance hashf cur rnd now adj m =
  let '(m2, evt) := m_maint_pre hashf cur m in
  let '(m5, ex, evd) := m_maint_post hashf cur rnd now adj m2 in (m5, ex, evt, evd).
Proof.
  unfold m_maintenance, m_maint_pre, m_maint_post.
  destruct (m_run_tasks _ _ _ _ _) as [m2 evt].
  destruct (m_expire m2).
  - destruct (wheel_delete_expired cur (whl m2) now) as [w ids].
    destruct (m_evict (m_evict_all (with_whl m2 w) ids)); [destruct (pol_evict_nodes _ _ _)|]; reflexivity.
  - destruct (m_evict m2); [destruct (pol_evict_nodes _ _ _)|]; reflexivity.
Qed.

(* [fl]: the tasks still in flight, not yet in the write buffer *)
Theorem MI_maint_pre hashf cur m fl :
  MI m (fl ++ wbuf m) ->
  let m' := fst (m_maint_pre hashf cur m) in MI m' fl /\ wbuf m' = [].
Proof.
  intros HM. unfold m_maint_pre.
  set (m1 := if skip_read_buffer m then m else with_rbuf (fold_left (m_on_access hashf cur) (rbuf m) m) []).
  assert (H1 : MI m1 (fl ++ wbuf m) /\ wbuf m1 = wbuf m).
  { unfold m1. destruct (skip_read_buffer m); [split; [exact HM|reflexivity]|].
    exact (MI_fold _ _ (fun m0 => MI_on_access hashf cur m0 _) (rbuf m) m HM). }
  destruct H1 as [H1 ->]. exact (MI_run_tasks hashf cur (wbuf m) (with_wbuf m1 []) fl [] H1).
Qed.

(* the policy the second part ends with is climb after evictNodes of a policy that satisfies the invariant for
   the same pending tasks (expiration has unlinked some nodes by then) *)
Lemma maint_post_pol hashf cur rnd now adj m pd :
  MI m pd ->
  let m' := fst (fst (m_maint_post hashf cur rnd now adj m)) in
  exists p3, PI p3 (cnew pd) (cold pd) /\
    pol m' = fst (pol_climb_adj adj (fst (pol_evict_nodes hashf rnd p3))) /\ m_evict m' = true /\ wbuf m' = wbuf m.
Proof.
  intros HM. unfold m_maint_post.
  set (r := if m_expire m then _ else _).
  assert (H3 : MI (fst r) pd /\ wbuf (fst r) = wbuf m).
  { unfold r. destruct (m_expire m); [|split; [exact HM|reflexivity]].
    destruct (wheel_delete_expired cur (whl m) now) as [w ids]. exact (MI_fold _ pd (fun m0 => MI_evict_node m0 pd) ids (with_whl m w) HM). }
  destruct r as [m3 expired]. destruct H3 as [[He3 HP3] Ew3]. cbn [fst] in He3, HP3, Ew3. rewrite He3.
  exists (pol m3). split; [exact HP3|].
  destruct (pol_evict_nodes hashf rnd (pol m3)) as [p ids].
  destruct (fold_wheel_delete_pol ids (with_pol m3 p)) as (A & B & C & _). cbv zeta in A, B, C.
  rewrite B. cbn [m_evict with_pol]. rewrite He3. cbn [fst pol m_evict wbuf with_pol]. rewrite A, B, C.
  repeat split; assumption.
Qed.

(* [pd]: whatever is pending, in particular tasks that reached the write buffer after the drain *)
Theorem MI_maint_post hashf cur rnd now adj m pd :
  MI m pd ->
  let m' := fst (fst (m_maint_post hashf cur rnd now adj m)) in MI m' pd /\ wbuf m' = wbuf m.
Proof.
  intros HM. destruct (maint_post_pol hashf cur rnd now adj m pd HM) as (p3 & HP & Ep & Ee & Ew).
  split; [split; [exact Ee|]|exact Ew]. rewrite Ep. apply PIX_pol_climb_adj, PIX_pol_evict_nodes, HP.
Qed.

Theorem MI_maintenance hashf cur rnd now adj m fl :
  MI m (fl ++ wbuf m) ->
  let m' := fst (fst (fst (m_maintenance hashf cur rnd now adj m))) in
  MI m' fl /\ wbuf m' = [].
Proof.
  intros HM. rewrite m_maintenance_split.
  destruct (MI_maint_pre hashf cur m fl HM) as [H2 Ew2]. destruct (m_maint_pre hashf cur m) as [m2 evt]. cbn [fst] in H2, Ew2.
  destruct (MI_maint_post hashf cur rnd now adj m2 fl H2) as [H5 Ew5]. destruct (m_maint_post hashf cur rnd now adj m2) as [[m5 ex] evd].
  cbn [fst] in *. split; [exact H5|rewrite Ew5; exact Ew2].
Qed.

Record msys := mkSys { sm : mstate; sfl : list task }.     (* sfl: tasks created but not yet in the write buffer *)
Definition pend (s : msys) : list task := sfl s ++ wbuf (sm s).

Fixpoint remove_nth {A} (k : nat) (l : list A) : list A :=
  match l, k with
  | [], _ => []
  | _ :: t, O => t
  | h :: t, S k' => h :: remove_nth k' t
  end.

Inductive mev :=
| ECreate (n key w : Z)              (* an index action installs a fresh node for an absent key *)
| EReplace (n key w old : Z)         (* ... replaces the current node old *)
| ERemove (old : Z)                  (* ... removes the current node old *)
| ERead (id : Z)                     (* a read hands a node to the read buffer *)
| EPush (k : nat)                    (* the k-th task in flight reaches the write buffer: ANY order *)
| EMaint (cur : Z -> Z) (rnd now adj : Z)
| ESetMax (mx wm pm : Z).

Definition sys_step (hashf : Z -> Z -> Z) (s : msys) (e : mev) : msys :=
  match e with
  | ECreate n key w => mkSys (m_new (sm s) n key w) (sfl s ++ [TAdd n])
  | EReplace n key w old => mkSys (m_retire (m_new (sm s) n key w) old) (sfl s ++ [TUpd n old])
  | ERemove old => mkSys (m_retire (sm s) old) (sfl s ++ [TDel old])
  | ERead id => mkSys (fst (m_read (sm s) id)) (sfl s)
  | EPush k => match nth_error (sfl s) k with
               | Some t => mkSys (m_push (sm s) t) (remove_nth k (sfl s))
               | None => s
               end
  | EMaint cur rnd now adj => mkSys (fst (fst (fst (m_maintenance hashf cur rnd now adj (sm s))))) (sfl s)
  | ESetMax mx wm pm => mkSys (m_set_maximum (sm s) mx wm pm) (sfl s)
  end.

(* node identities are fresh; index actions replace / remove the node that is current (alive) *)
Definition ev_ok (s : msys) (e : mev) : Prop :=
  match e with
  | ECreate n _ _ => sget (store (pol (sm s))) n = None
  | EReplace n _ _ old => sget (store (pol (sm s))) n = None /\
                          exists nd, sget (store (pol (sm s))) old = Some nd /\ pstate nd = ALIVE
  | ERemove old => exists nd, sget (store (pol (sm s))) old = Some nd /\ pstate nd = ALIVE
  | _ => True
  end.

Fixpoint run_ok (hashf : Z -> Z -> Z) (s : msys) (evs : list mev) : Prop :=
  match evs with
  | [] => True
  | e :: evs' => ev_ok s e /\ run_ok hashf (sys_step hashf s e) evs'
  end.

Definition SI (s : msys) : Prop := MI (sm s) (pend s).

Lemma remove_nth_app {A} (a b : list A) t : remove_nth (length a) (a ++ t :: b) = a ++ b.
Proof. induction a as [|h a IH]; cbn [length app remove_nth]; [reflexivity|]. rewrite IH. reflexivity. Qed.

Lemma SI_step hashf s e : SI s -> ev_ok s e -> SI (sys_step hashf s e).
Proof.
  intros [He HP] Hok. unfold SI, MI, pend in *.
  destruct e as [n key w|n key w old|old|id|k|cur rnd now|mx wm pm]; cbn [sys_step ev_ok sm sfl] in *.
  (* a new task t joins the tasks in flight: (sfl ++ [t]) ++ wbuf is sfl ++ t :: wbuf *)
  - split; [exact He|]. cbn [pol m_new with_pol wbuf]. rewrite <- app_assoc. cbn [app].
    refine (PIX_cn_ext _ _ _ _ _ _ _ _ _ (created_at _ _ n (count_one_new _ _ (TAdd n)) (proj1 (pi_absent _ _ _ _ _ _ _ HP n Hok))) _
              (PI_create _ _ _ n key w HP Hok)).
    intros id. rewrite count_one_old. apply Z.add_0_r.
  - destruct Hok as [Hfr (nd & Eso & Hal)].
    assert (Hne : n <> old) by (intros ->; congruence).
    set (p1 := set_node (pol (sm s)) n (mkPnode key w ALIVE QWINDOW)).
    assert (Eso1 : sget (store p1) old = Some nd) by (cbn [p1 set_node with_store store]; rewrite sget_sset_other by congruence; exact Eso).
    unfold m_retire. cbn [pol m_new with_pol]. fold p1. rewrite (node_of_some p1 old nd Eso1), Hal. change (ALIVE =? ALIVE) with true. cbv iota.
    split; [exact He|]. cbn [pol with_pol wbuf m_new]. rewrite <- app_assoc. cbn [app].
    exact (PIX_cn_ext _ _ _ _ _ _ _ _ _ (created_at _ _ n (count_one_new _ _ (TUpd n old)) (proj1 (pi_absent _ _ _ _ _ _ _ HP n Hfr)))
             (created_at _ _ old (count_one_old _ _ (TUpd n old)) (proj1 (pi_alive _ _ _ _ _ _ _ HP old nd Eso Hal)))
             (PI_retire p1 _ _ old nd (PI_create _ _ _ n key w HP Hfr) Eso1 Hal)).
  - destruct Hok as (nd & Eso & Hal).
    unfold m_retire. rewrite (node_of_some _ old nd Eso), Hal. change (ALIVE =? ALIVE) with true. cbv iota.
    split; [exact He|]. cbn [pol with_pol wbuf]. rewrite <- app_assoc. cbn [app].
    refine (PIX_cn_ext _ _ _ _ _ _ _ _ _ _ (created_at _ _ old (count_one_old _ _ (TDel old)) (proj1 (pi_alive _ _ _ _ _ _ _ HP old nd Eso Hal)))
              (PI_retire _ _ _ old nd HP Eso Hal)).
    intros id. rewrite count_one_new. apply Z.add_0_r.
  - (* read: only the read buffer changes *)
    unfold m_read. destruct (skip_read_buffer (sm s)); [split; assumption|].
    destruct (Nat.ltb (length (rbuf (sm s))) 16); split; assumption.
  - destruct (nth_error (sfl s) k) as [t|] eqn:En; [|split; assumption].
    apply nth_error_split in En. destruct En as (a & b & Ea & <-). rewrite Ea in *. rewrite remove_nth_app.
    cbn [sm sfl]. split; [exact He|]. cbn [pol m_push with_wbuf wbuf].
    refine (PIX_cn_ext _ _ _ _ _ _ _ _ _ _ _ HP); intros id.
    + rewrite !cnew_app. cbn [cnew]. lia.
    + rewrite !cold_app. cbn [cold]. lia.
  - destruct (MI_maintenance hashf cur rnd now adj (sm s) (sfl s) (conj He HP)) as [[A B] C]. cbv zeta in A, B, C.
    rewrite C, app_nil_r. split; assumption.
  - split; [exact He|]. unfold m_set_maximum. cbn [pol with_pol wbuf]. unfold pol_set_maximum.
    destruct (mx =? maxi (pol (sm s))); [exact HP|].
    destruct (negb (pweighted (with_maxima (pol (sm s)) mx wm pm)) && (wsize (with_maxima (pol (sm s)) mx wm pm) >=? Z.shiftr mx 1));
      apply (PIX_ext 0 0 0 _ (pol (sm s))); try reflexivity; exact HP.
Qed.

Theorem SI_run hashf evs : forall s, SI s -> run_ok hashf s evs -> SI (fold_left (sys_step hashf) evs s).
Proof.
  induction evs as [|e evs IH]; intros s HS Hok; cbn [fold_left]; [exact HS|].
  destruct Hok as [H1 H2]. apply IH; [apply SI_step; assumption|exact H2].
Qed.

Definition sys0 (expire weighted : bool) : msys := mkSys (mstate0 true expire weighted) [].

Lemma SI_sys0 expire weighted : SI (sys0 expire weighted).
Proof.
  unfold SI, MI, sys0, pend, mstate0, policy0. cbn [sm sfl wbuf app m_evict pol]. split; [reflexivity|].
  constructor; unfold in_queue_ok, linked; cbn [store qwin qprob qprot wsize wwsize pwsize cnew cold sget skeys map app ssum];
    try (intros; exfalso; assumption); try constructor; try (intros; discriminate); try reflexivity; try lia; try (intros; split; reflexivity).
Qed.

Lemma sumZ_perm (l l' : list Z) : Permutation l l' -> sumZ l = sumZ l'.
Proof. unfold sumZ. induction 1; cbn [fold_right]; lia. Qed.

Lemma sumZ_filter (w : Z -> Z) (P : Z -> bool) ks :
  sumZ (map (fun id => if P id then w id else 0) ks) = sumZ (map w (filter P ks)).
Proof. unfold sumZ. induction ks as [|i ks IH]; cbn [map filter fold_right]; [reflexivity|]. destruct (P i); cbn [map fold_right]; lia. Qed.

Lemma sumZ_selected (w : Z -> Z) (P : Z -> bool) ks : NoDup ks -> forall l, NoDup l ->
  (forall id, In id l <-> In id ks /\ P id = true) ->
  sumZ (map (fun id => if P id then w id else 0) ks) = sumZ (map w l).
Proof.
  intros Hk l Hl Hm. rewrite sumZ_filter. apply sumZ_perm, Permutation_map, NoDup_Permutation; [apply NoDup_filter; exact Hk|exact Hl|].
  intros id. rewrite filter_In, Hm. reflexivity.
Qed.

Lemma ssum_by_key f st : NoDup (skeys st) ->
  ssum f st = sumZ (map (fun id => match sget st id with Some nd => f id nd | None => 0 end) (skeys st)).
Proof.
  induction st as [|[i n] st IH]; intros Hk; [reflexivity|]. inversion Hk as [|? ? Hni Hnd]; subst.
  cbn [ssum skeys map fst sget]. change (sumZ (?x :: ?t)) with (x + sumZ t). rewrite Z.eqb_refl, (IH Hnd). f_equal. f_equal.
  apply map_ext_in. intros id Hid. replace (i =? id) with false; [reflexivity|]. symmetry. apply Z.eqb_neq. intros ->. exact (Hni Hid).
Qed.

Definition alive_in (p : policy) (id : Z) : Prop := exists nd, sget (store p) id = Some nd /\ pstate nd = ALIVE.

Section Quiescent.
Variable p : policy.
Hypothesis HP : PI p (cnew []) (cold []).

Lemma q_not_dead_alive id nd : sget (store p) id = Some nd -> pstate nd <> DEAD -> pstate nd = ALIVE.
Proof.
  intros Es Hd. destruct (pi_states _ _ _ _ _ _ _ HP id nd Es) as [[A|[A|A]] _]; [exact A| |contradiction].
  pose proof (pi_retired _ _ _ _ _ _ _ HP id nd Es A) as H. cbn [cold] in H. lia.
Qed.

(* the deques hold exactly the entries present, each once: nothing removed is still tracked, nothing
   present is unknown to the policy *)
Theorem quiescent_linked_iff_alive id : linked p id <-> alive_in p id.
Proof.
  split.
  - intros L. destruct (linked_tracked id HP L) as (nd & A & _ & _ & C & _). exists nd. split; [exact A|exact (q_not_dead_alive id nd A C)].
  - intros (nd & Es & Ha). destruct (pi_alive _ _ _ _ _ _ _ HP id nd Es Ha) as [_ B]. apply B; [reflexivity|tauto].
Qed.

Theorem quiescent_nodup : NoDup (qwin p ++ qprob p ++ qprot p).
Proof. exact (pi_nodup _ _ _ _ _ _ _ HP). Qed.

Lemma q_sum sel l : NoDup l ->
  (forall id, In id l <-> exists nd, sget (store p) id = Some nd /\ sel (pqueue nd) = true /\ pstate nd <> DEAD) ->
  ssum (wt sel (cnew [])) (store p) = sum_weights p l.
Proof.
  intros Nl Hl. pose proof (pi_keys _ _ _ _ _ _ _ HP) as Hk. rewrite (ssum_by_key _ _ Hk). unfold sum_weights.
  rewrite <- (sumZ_selected _ (fun id => sel (pqueue (node_of p id)) && negb (pstate (node_of p id) =? DEAD)) _ Hk l Nl).
  - f_equal. apply map_ext. intros id. unfold node_of. destruct (sget (store p) id) as [nd|]; [|rewrite andb_false_r; reflexivity].
    unfold wt, coef. cbn [cnew]. change (0 =? 0) with true. destruct (sel (pqueue nd)), (pstate nd =? DEAD); cbn [negb andb]; lia.
  - intros id. rewrite Hl, andb_true_iff, negb_true_iff. unfold node_of. split.
    + intros (nd & A & B & C). rewrite A. repeat split; [exact (sget_in_keys _ _ _ A)|exact B|lia].
    + intros (_ & B & C). destruct (sget (store p) id) as [nd|]; [exists nd; repeat split; [exact B|lia]|discriminate C].
Qed.

Lemma q_in_queue q : vq q -> forall id, In id (queue_of p q) <->
  exists nd, sget (store p) id = Some nd /\ s_tag q (pqueue nd) = true /\ pstate nd <> DEAD.
Proof.
  intros Hq id. unfold s_tag. split.
  - intros Hin. destruct (PIX_queue q HP Hq id Hin) as (nd & A & B & C & _). exists nd. repeat split; [exact A|lia|exact C].
  - intros (nd & A & B & C).
    assert (L : linked p id) by (apply quiescent_linked_iff_alive; exists nd; split; [exact A|exact (q_not_dead_alive id nd A C)]).
    destruct (linked_tracked id HP L) as (nd0 & A0 & _ & I & _). rewrite A in A0. injection A0 as <-.
    replace q with (pqueue nd) by lia. exact I.
Qed.

Theorem quiescent_weighted_size : wsize p = wrapu (sum_weights p (qwin p ++ qprob p ++ qprot p)).
Proof.
  rewrite (pi_wsize _ _ _ _ _ _ _ HP), Z.add_0_r. f_equal. apply (q_sum s_all); [exact quiescent_nodup|].
  intros id. transitivity (linked p id); [unfold linked; rewrite !in_app_iff; tauto|]. rewrite quiescent_linked_iff_alive. split.
  - intros (nd & A & B). exists nd. repeat split; [exact A|rewrite B; discriminate].
  - intros (nd & A & _ & C). exists nd. split; [exact A|exact (q_not_dead_alive id nd A C)].
Qed.

Theorem quiescent_window_size : wwsize p = wrapu (sum_weights p (qwin p)).
Proof.
  rewrite (pi_wwsize _ _ _ _ _ _ _ HP), Z.add_0_r. f_equal.
  exact (q_sum (s_tag QWINDOW) _ (PIX_nodup_queue QWINDOW HP) (q_in_queue QWINDOW vq_win)).
Qed.

Theorem quiescent_protected_size : pwsize p = wrapu (sum_weights p (qprot p)).
Proof.
  rewrite (pi_pwsize _ _ _ _ _ _ _ HP), Z.add_0_r. f_equal.
  exact (q_sum (s_tag QPROTECTED) _ (PIX_nodup_queue QPROTECTED HP) (q_in_queue QPROTECTED vq_prot)).
Qed.

Theorem quiescent_agreement :
  NoDup (qwin p ++ qprob p ++ qprot p) /\
  (forall id, linked p id <-> alive_in p id) /\
  wsize p = wrapu (sum_weights p (qwin p ++ qprob p ++ qprot p)) /\
  wwsize p = wrapu (sum_weights p (qwin p)) /\
  pwsize p = wrapu (sum_weights p (qprot p)).
Proof.
  exact (conj quiescent_nodup (conj quiescent_linked_iff_alive
           (conj quiescent_weighted_size (conj quiescent_window_size quiescent_protected_size)))).
Qed.

Theorem quiescent_tags id : (In id (qwin p) -> pqueue (node_of p id) = QWINDOW) /\
  (In id (qprob p) -> pqueue (node_of p id) = QPROBATION) /\ (In id (qprot p) -> pqueue (node_of p id) = QPROTECTED).
Proof.
  repeat split; intros L;
    [destruct (pi_win _ _ _ _ _ _ _ HP id L) as (nd & A & B & _)|destruct (pi_prob _ _ _ _ _ _ _ HP id L) as (nd & A & B & _)
    |destruct (pi_prot _ _ _ _ _ _ _ HP id L) as (nd & A & B & _)]; rewrite (node_of_some p id nd A); exact B.
Qed.
End Quiescent.

(* C05 over all event lists: whenever no task is pending, the invariant holds with every debt and credit gone,
   so the policy agrees with the table ([quiescent_agreement]) *)
Theorem policy_quiescent hashf evs expire weighted :
  run_ok hashf (sys0 expire weighted) evs ->
  let s := fold_left (sys_step hashf) evs (sys0 expire weighted) in
  pend s = [] -> PI (pol (sm s)) (cnew []) (cold []).
Proof.
  intros Hok s Hq.
  pose proof (SI_run hashf evs (sys0 expire weighted) (SI_sys0 expire weighted) Hok) as [_ HP]. fold s in HP. rewrite Hq in HP. exact HP.
Qed.
