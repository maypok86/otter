(* Base.v — fixed-width arithmetic of the Go code, written out explicitly, and
   small list utilities shared by every model.  Stdlib only. *)
From Coq Require Export ZArith List Lia Bool.
Export ListNotations.
Open Scope Z_scope.

Definition two64 : Z := 18446744073709551616.       (* 2^64 *)
Definition two63 : Z := 9223372036854775808.        (* 2^63 *)
Definition MaxInt64 : Z := 9223372036854775807.
Definition MaxUint64 : Z := 18446744073709551615.

(* uint64 wrap-around *)
Definition wrapu (x : Z) : Z := x mod two64.
(* int64 wrap-around (two's complement) *)
Definition wraps (x : Z) : Z := (x + two63) mod two64 - two63.

(* xmath.SaturatedAdd, transcribed: s := a + b (wrapping); if s < a || s < b -> MaxInt64 *)
Definition satadd (a b : Z) : Z :=
  let s := wraps (a + b) in
  if (s <? a) || (s <? b) then MaxInt64 else s.

(* xmath.Abs on int64 (wrapping negation) *)
Definition abs64 (a : Z) : Z := if a <? 0 then wraps (- a) else a.

Definition in_i64 (x : Z) : Prop := - two63 <= x <= MaxInt64.
Definition in_u64 (x : Z) : Prop := 0 <= x < two64.

Lemma wrapu_range x : in_u64 (wrapu x).
Proof. unfold in_u64, wrapu, two64. apply Z.mod_pos_bound. lia. Qed.

Lemma wrapu_id x : in_u64 x -> wrapu x = x.
Proof. unfold in_u64, wrapu. intros H. apply Z.mod_small. exact H. Qed.

Lemma wraps_range x : in_i64 (wraps x).
Proof.
  unfold in_i64, wraps, two63, MaxInt64, two64.
  pose proof (Z.mod_pos_bound (x + 9223372036854775808) 18446744073709551616 ltac:(lia)). lia.
Qed.

Lemma wraps_id x : in_i64 x -> wraps x = x.
Proof.
  unfold in_i64, wraps, two63, MaxInt64, two64. intros H.
  rewrite Z.mod_small by lia. lia.
Qed.

Lemma wrapu_add_l a b : wrapu (wrapu a + b) = wrapu (a + b).
Proof. apply Zplus_mod_idemp_l. Qed.

Lemma wrapu_add_r a b : wrapu (a + wrapu b) = wrapu (a + b).
Proof. apply Zplus_mod_idemp_r. Qed.

Lemma wrapu_sub_l a b : wrapu (wrapu a - b) = wrapu (a - b).
Proof. apply Zminus_mod_idemp_l. Qed.

Fixpoint upd {A} (i : nat) (x : A) (l : list A) : list A :=
  match l, i with
  | [], _ => []
  | _ :: t, O => x :: t
  | h :: t, S i' => h :: upd i' x t
  end.

Lemma upd_length {A} i (x : A) l : length (upd i x l) = length l.
Proof. revert i; induction l as [|h t IH]; intros [|i]; simpl; auto. Qed.

Lemma upd_app1 {A} (x : A) : forall l1 l2 i, (i < length l1)%nat -> upd i x (l1 ++ l2) = upd i x l1 ++ l2.
Proof.
  induction l1 as [|h l1 IH]; intros l2 i Hi; [cbn in Hi; lia|].
  destruct i; cbn [upd app]; [reflexivity|]. rewrite IH by (cbn [length] in Hi; lia). reflexivity.
Qed.

Lemma upd_app2 {A} (x : A) : forall l1 l2 i, upd (length l1 + i) x (l1 ++ l2) = l1 ++ upd i x l2.
Proof. induction l1 as [|h l1 IH]; intros l2 i; cbn [upd app length Nat.add]; [|rewrite IH]; reflexivity. Qed.

Lemma upd_snoc {A} (l : list A) x y : upd (length l) y (l ++ [x]) = l ++ [y].
Proof. rewrite <- (Nat.add_0_r (length l)). exact (upd_app2 y l [x] 0). Qed.

Lemma map_upd {A B} (f : A -> B) x : forall l i, map f (upd i x l) = upd i (f x) (map f l).
Proof.
  induction l as [|h t IH]; intros i; [destruct i; reflexivity|].
  destruct i; cbn [upd map]; [reflexivity|]. rewrite IH. reflexivity.
Qed.

Lemma nth_error_upd {A} i j (x : A) l :
  nth_error (upd i x l) j = if Nat.eqb j i then option_map (fun _ => x) (nth_error l j) else nth_error l j.
Proof.
  revert i j; induction l as [|h t IH]; intros i j; [destruct i, j, (Nat.eqb _ _); reflexivity|].
  destruct i, j; simpl; try reflexivity. apply IH.
Qed.

Lemma nth_error_upd_same {A} i (x : A) l : (i < length l)%nat -> nth_error (upd i x l) i = Some x.
Proof.
  intros H. rewrite nth_error_upd, Nat.eqb_refl. destruct (nth_error l i) eqn:E; [reflexivity|].
  apply nth_error_None in E. lia.
Qed.

Lemma nth_error_upd_other {A} i j (x : A) l : i <> j -> nth_error (upd i x l) j = nth_error l j.
Proof. intros H. rewrite nth_error_upd. destruct (Nat.eqb_spec j i); [congruence|reflexivity]. Qed.

Lemma nth_upd_same {A} i (x d : A) l : (i < length l)%nat -> nth i (upd i x l) d = x.
Proof. intros H. apply nth_error_nth, nth_error_upd_same, H. Qed.

Lemma nth_upd_other {A} i j (x d : A) l : i <> j -> nth j (upd i x l) d = nth j l d.
Proof.
  revert i j; induction l as [|h t IH]; intros [|i] [|j] H; simpl; auto; try congruence.
Qed.

Lemma nth_error_upd_inv {A} i j (x q : A) l :
  nth_error (upd i x l) j = Some q -> j = i /\ q = x \/ j <> i /\ nth_error l j = Some q.
Proof.
  rewrite nth_error_upd. destruct (Nat.eqb_spec j i) as [->|N]; [|right; split; assumption].
  destruct (nth_error l i); [|discriminate]. intros [= <-]. left. split; reflexivity.
Qed.

Lemma upd_all {A} (P : A -> Prop) i x l :
  (forall j u, nth_error l j = Some u -> P u) -> P x -> forall j u, nth_error (upd i x l) j = Some u -> P u.
Proof. intros H Hx j u Hj. destruct (nth_error_upd_inv _ _ _ _ _ Hj) as [[_ ->]|[_ Hj']]; [exact Hx|exact (H j u Hj')]. Qed.

Lemma Forall_upd {A} (P : A -> Prop) i x l : Forall P l -> P x -> Forall P (upd i x l).
Proof.
  revert i; induction l as [|h l IH]; intros [|i] Hl Hx; simpl; auto; inversion Hl; subst; constructor; auto.
Qed.

Lemma firstn_S_nth {A} (d : A) l n : (n < length l)%nat -> firstn (S n) l = firstn n l ++ [nth n l d].
Proof.
  revert n; induction l as [|h t IH]; intros [|n] H; simpl in *; try lia; auto.
  f_equal. apply IH. lia.
Qed.

(* The concurrent models count their threads per program counter as length (filter f l). *)
Lemma count_cons {A} (f : A -> bool) t l : length (filter f (t :: l)) = (Nat.b2n (f t) + length (filter f l))%nat.
Proof. simpl. destruct (f t); reflexivity. Qed.

Lemma count_zero {A} (f : A -> bool) l : length (filter f l) = 0%nat <-> forall t, In t l -> f t = false.
Proof.
  rewrite length_zero_iff_nil. split.
  - intros E t Ht. destruct (f t) eqn:F; [|reflexivity].
    assert (H : In t (filter f l)) by (apply filter_In; split; assumption). rewrite E in H. destruct H.
  - intros H. destruct (filter f l) as [|x r] eqn:E; [reflexivity|].
    assert (Hx : In x (filter f l)) by (rewrite E; left; reflexivity).
    apply filter_In in Hx. rewrite (H x (proj1 Hx)) in Hx. destruct Hx; discriminate.
Qed.

Lemma count_pos {A} (f : A -> bool) l :
  (1 <= length (filter f l))%nat -> exists j t, nth_error l j = Some t /\ f t = true.
Proof.
  intros H. destruct (filter f l) as [|u r] eqn:E; [simpl in H; lia|].
  assert (Hu : In u (filter f l)) by (rewrite E; left; reflexivity). apply filter_In in Hu. destruct Hu as [Hin Hu].
  destruct (In_nth_error _ _ Hin) as [j Hj]. exists j, u. split; assumption.
Qed.

(* one rest for every f: an invariant relates the counts of several program counters *)
Lemma count_split {A} l i (t : A) : nth_error l i = Some t ->
  exists rest, forall f,
    length (filter f l) = (length (filter f rest) + Nat.b2n (f t))%nat /\
    forall t', length (filter f (upd i t' l)) = (length (filter f rest) + Nat.b2n (f t'))%nat.
Proof.
  revert i; induction l as [|h l IH]; intros [|i] H; try discriminate H; cbn [nth_error upd] in *.
  - injection H as ->. exists l. intros f. split; [|intros t']; rewrite count_cons; lia.
  - destruct (IH i H) as [rest Hr]. exists (h :: rest). intros f. destruct (Hr f) as [H1 H2].
    split; [|intros t'; specialize (H2 t')]; rewrite !count_cons; lia.
Qed.

Lemma count_upd {A} (f : A -> bool) x l i old : nth_error l i = Some old ->
  (Nat.b2n (f old) <= length (filter f l) /\
   length (filter f (upd i x l)) + Nat.b2n (f old) = length (filter f l) + Nat.b2n (f x))%nat.
Proof. intros H. destruct (count_split l i old H) as [rest Hr]. destruct (Hr f) as [-> ->]. lia. Qed.

Definition sumZ (l : list Z) : Z := fold_right Z.add 0 l.

Lemma sumZ_app a b : sumZ (a ++ b) = sumZ a + sumZ b.
Proof. induction a as [|x a IH]; simpl; lia. Qed.

Lemma Forall_nth_default {A} (P : A -> Prop) l i d : Forall P l -> P d -> P (nth i l d).
Proof.
  intros Hl Hd. destruct (nth_in_or_default i l d) as [H| ->]; [|exact Hd].
  exact (proj1 (Forall_forall P l) Hl _ H).
Qed.
