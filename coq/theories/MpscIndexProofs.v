(* MpscIndexProofs.v — invariants of the MPSC index protocol (MpscIndex.v) for any number of producers,
   every schedule and any consumer progress. *)
From Coq Require Import List Arith Bool ZArith Lia.
Import ListNotations.
From Otter Require Base.
From Otter Require Import MpscIndex.
Local Open Scope Z_scope.

(* [upd] of MpscIndex.v is the same fixpoint as Base.upd, whose lemmas therefore apply to it as they stand *)
Lemma nth_error_upd_eq {A} (x : A) l i : (i < length l)%nat -> nth_error (upd i x l) i = Some x.
Proof. exact (Base.nth_error_upd_same i x l). Qed.
Lemma nth_error_upd_neq {A} (x : A) l i j : i <> j -> nth_error (upd i x l) j = nth_error l j.
Proof. exact (Base.nth_error_upd_other i j x l). Qed.
Lemma nth_upd_cases {A} (l : list A) i j x u :
  nth_error (upd i x l) j = Some u -> (j = i /\ u = x) \/ (j <> i /\ nth_error l j = Some u).
Proof. exact (Base.nth_error_upd_inv i j x u l). Qed.
Ltac thr H := apply nth_upd_cases in H; destruct H as [[-> ->]|[? H]].

Definition is_rz (t : ith) : bool := match ipc_ t with R0 | R1 => true | _ => false end.
Definition rzc (l : list ith) : nat := length (filter is_rz l).
Definition b2n (b : bool) : nat := if b then 1%nat else 0%nat.
Lemma rzc_cons t l : rzc (t :: l) = (b2n (is_rz t) + rzc l)%nat.
Proof. unfold rzc. cbn [filter]. destruct (is_rz t); reflexivity. Qed.
Lemma rzc_upd x l i old : nth_error l i = Some old -> (rzc (upd i x l) + b2n (is_rz old) = rzc l + b2n (is_rz x))%nat.
Proof. intros H. exact (proj2 (Base.count_upd is_rz x l i old H)). Qed.
Lemma rzc_zero l : rzc l = 0%nat -> forall j u, nth_error l j = Some u -> is_rz u = false.
Proof. intros H j u Hj. exact (proj1 (Base.count_zero is_rz l) H u (nth_error_In l j Hj)). Qed.

(* what a thread's stale values are worth, by position *)
Definition th_ok (s : ist) (t : ith) : Prop :=
  match ipc_ t with
  | P0 => True
  | P1 => l_lim t <= ilim s
  | P2 => l_lim t <= ilim s /\ l_p t <= ip s
  | P3 => l_lim t <= ilim s /\ l_p t <= ip s /\ 1 <= l_bcap t <= ibcap s /\
          (irz s = false -> ip s = l_p t -> l_gen t = igen s /\ l_bcap t = ibcap s)
  | S0 => l_lim t <= ilim s /\ l_p t <= ip s /\ 1 <= l_bcap t <= ibcap s /\ l_lim t <= l_p t /\
          (irz s = false -> ip s = l_p t -> l_gen t = igen s /\ l_bcap t = ibcap s)
  | S1 => l_lim t <= ilim s /\ l_p t <= ip s /\ 1 <= l_bcap t <= ibcap s /\ l_lim t <= l_p t /\ l_c t <= ic s /\
          (irz s = false -> ip s = l_p t -> l_gen t = igen s /\ l_bcap t = ibcap s)
  | P4 => l_p t <= ip s /\ l_p t < ilim s /\ l_p t < Z.max (ic s) (ibase s) + ibcap s /\ l_p t < ic s + imax s /\
          (irz s = false -> ip s = l_p t -> l_gen t = igen s /\ l_bcap t = ibcap s)
  | R0 => irz s = true /\ l_p t = ip s /\ l_p t - ic s < imax s
  | R1 => irz s = true /\ l_p t = ip s /\ l_p t + 1 <= ilim s
  | IClaimed _ _ | IFull | IGrown _ _ => True
  end.

Record IInv (s : ist) : Prop := {
  v_cp : 0 <= ic s <= ip s;
  v_base : ibase s <= ip s;
  v_caps : 1 <= ibcap s <= imax s;
  v_lim_buf : ilim s <= Z.max (ic s) (ibase s) + ibcap s;
  v_lim_max : ilim s <= ic s + imax s;
  v_p_lim : ip s <= ilim s;
  v_rz : rzc (iths s) = b2n (irz s);
  v_ths : forall j t, nth_error (iths s) j = Some t -> th_ok s t
}.

(* an unchanged thread's facts survive a step of somebody else *)
Lemma th_stable s s' u :
  th_ok s u ->
  ilim s <= ilim s' -> ip s <= ip s' -> ic s <= ic s' -> ibcap s <= ibcap s' -> imax s' = imax s ->
  (forall x, x <= ip s -> x < Z.max (ic s) (ibase s) + ibcap s -> x < Z.max (ic s') (ibase s') + ibcap s') ->
  (irz s' = false -> forall x, x <= ip s -> ip s' = x -> irz s = false /\ ip s = x /\ igen s' = igen s /\ ibcap s' = ibcap s) ->
  (is_rz u = false \/ (irz s' = irz s /\ ip s' = ip s)) ->
  th_ok s' u.
Proof.
  intros H Hl Hp Hc Hb Hm Hbuf Hcond Hr.
  (* what was read before the claim is still current if the claim can still succeed *)
  assert (F : l_p u <= ip s -> (irz s = false -> ip s = l_p u -> l_gen u = igen s /\ l_bcap u = ibcap s) ->
              irz s' = false -> ip s' = l_p u -> l_gen u = igen s' /\ l_bcap u = ibcap s').
  { intros B D E1 E2. destruct (Hcond E1 (l_p u) B E2) as (F1 & F2 & F3 & F4). destruct (D F1 F2). split; [congruence|lia]. }
  unfold th_ok in *. unfold is_rz in Hr. destruct (ipc_ u); try exact I.
  - lia.
  - lia.
  - destruct H as (A & B & C & D). repeat split; try lia; apply F; assumption.
  - destruct H as (A & B & C & D0 & D). repeat split; try lia; apply F; assumption.
  - destruct H as (A & B & C & D0 & D1 & D). repeat split; try lia; apply F; assumption.
  - destruct H as (A & B & C & D0 & D). repeat split; try lia; [apply Hbuf; assumption|apply F; assumption..].
  - destruct Hr as [Hr|[R1' R2']]; [discriminate Hr|]. destruct H as (A & B & C). rewrite R1', R2'. split; [assumption|]. split; [assumption|lia].
  - destruct Hr as [Hr|[R1' R2']]; [discriminate Hr|]. destruct H as (A & B & C). rewrite R1', R2'. split; [assumption|]. split; [assumption|lia].
Qed.

Lemma inv_local s i t t' :
  IInv s -> nth_error (iths s) i = Some t -> is_rz t' = is_rz t -> th_ok s t' -> IInv (set_ths s (upd i t' (iths s))).
Proof.
  intros I Hi Hr Ht.
  constructor; cbn [set_ths ip ic ilim ibase ibcap imax igen irz iths]; try apply I.
  - pose proof (rzc_upd t' _ i t Hi) as U. rewrite Hr in U. pose proof (v_rz s I). lia.
  - intros j u Hj. thr Hj; [exact Ht|exact (v_ths s I j u Hj)].
Qed.

Lemma th_ok_ext s s' u :
  ip s' = ip s -> ic s' = ic s -> ilim s' = ilim s -> ibase s' = ibase s -> ibcap s' = ibcap s -> imax s' = imax s ->
  igen s' = igen s -> irz s' = irz s -> th_ok s u -> th_ok s' u.
Proof. intros E1 E2 E3 E4 E5 E6 E7 E8. unfold th_ok. rewrite E1, E2, E3, E4, E5, E6, E7, E8. exact (fun x => x). Qed.

Lemma no_rz s : IInv s -> irz s = false -> forall j u, nth_error (iths s) j = Some u -> is_rz u = false.
Proof. intros I E. apply rzc_zero. rewrite (v_rz s I), E. reflexivity. Qed.

Lemma rz_unique s i t : IInv s -> nth_error (iths s) i = Some t -> is_rz t = true ->
  forall j u, j <> i -> nth_error (iths s) j = Some u -> is_rz u = false.
Proof.
  intros I Hi Hr j u Hne Hj. destruct (is_rz u) eqn:Eu; [exfalso|reflexivity].
  pose proof (v_rz s I) as Hc. assert (Hb : (b2n (irz s) <= 1)%nat) by (destruct (irz s); cbn; lia).
  pose proof (rzc_upd (with_pc t IFull) (iths s) i t Hi) as U1.
  assert (Hj' : nth_error (upd i (with_pc t IFull) (iths s)) j = Some u) by (rewrite nth_error_upd_neq by lia; exact Hj).
  pose proof (rzc_upd (with_pc u IFull) _ j u Hj') as U2.
  rewrite Hr in U1. rewrite Eu in U2. cbn in U1, U2. lia.
Qed.

Lemma rz_step s i t t' (b' : bool) : IInv s -> nth_error (iths s) i = Some t ->
  (b2n (is_rz t') + b2n (irz s) = b2n (is_rz t) + b2n b')%nat -> rzc (upd i t' (iths s)) = b2n b'.
Proof. intros I Hi E. pose proof (rzc_upd t' _ i t Hi). pose proof (v_rz s I). lia. Qed.

Theorem IInv_step s i : IInv s -> IInv (istep s i).
Proof.
  intros I. unfold istep. destruct (nth_error (iths s) i) as [t|] eqn:Hi; [|exact I].
  pose proof (v_ths s I i t Hi) as Ht.
  pose proof (v_cp s I) as Hcp. pose proof (v_base s I) as Hba. pose proof (v_caps s I) as Hca.
  pose proof (v_lim_buf s I) as Hlb. pose proof (v_lim_max s I) as Hlm. pose proof (v_p_lim s I) as Hpl.
  (* most steps change thread i's record only *)
  assert (L : forall t', is_rz t' = is_rz t -> th_ok s t' -> IInv (set_ths s (upd i t' (iths s))))
    by (intros t'; exact (inv_local s i t t' I Hi)).
  assert (Hz : is_rz t = match ipc_ t with R0 | R1 => true | _ => false end) by reflexivity.
  assert (R : forall t' b', (b2n (is_rz t') + b2n (irz s) = b2n (is_rz t) + b2n b')%nat -> rzc (upd i t' (iths s)) = b2n b')
    by (intros t' b'; exact (rz_step s i t t' b' I Hi)).
  cbv zeta. unfold th_ok in Ht. destruct (ipc_ t) eqn:Hp.
  - (* P0 *) apply L; [rewrite Hz; reflexivity|]. unfold th_ok; cbn [ipc_ l_lim]. lia.
  - (* P1 *) destruct (irz s) eqn:Er; (apply L; [rewrite Hz; reflexivity|]); [exact Logic.I|].
    unfold th_ok; cbn [ipc_ l_lim l_p]. lia.
  - (* P2 *) apply L; [rewrite Hz; reflexivity|].
    unfold th_ok. cbn [ipc_ l_lim l_p l_gen l_bcap]. repeat split; try lia.
  - (* P3 *) destruct Ht as (A & B & C & D).
    destruct (Z.leb_spec (l_lim t) (l_p t)) as [Hle|Hgt]; (apply L; [rewrite Hz; reflexivity|]);
      unfold th_ok; cbn [with_pc ipc_ l_lim l_p l_gen l_bcap l_c]; repeat split; try lia; apply D; assumption.
  - (* S0 *) destruct Ht as (A & B & C & D0 & D). apply L; [rewrite Hz; reflexivity|].
    unfold th_ok. cbn [ipc_ l_lim l_p l_gen l_bcap l_c]. repeat split; try lia; apply D; assumption.
  - (* S1 *) destruct Ht as (A & B & C & D0 & D1 & D).
    destruct (Z.ltb_spec (l_p t) (l_c t + l_bcap t)) as [Hroom|Hnoroom].
    + destruct (Z.eqb_spec (ilim s) (l_lim t)) as [El|Nl]; [|apply L; [rewrite Hz; reflexivity|exact Logic.I]].
      (* the limit is raised *)
      constructor; cbn [ip ic ilim ibase ibcap imax igen irz iths]; try lia; [apply R; rewrite Hz; reflexivity|].
      intros j u Hj. thr Hj.
      * unfold th_ok. cbn [with_pc ipc_ l_lim l_p l_gen l_bcap l_c ip ic ilim ibase ibcap imax igen irz]. repeat split; try lia; apply D; assumption.
      * apply (th_stable s _ u (v_ths s I j u Hj)); cbn [ip ic ilim ibase ibcap imax igen irz];
          [lia|lia|lia|lia|reflexivity|intros x _ Hx; exact Hx|intros E x Hx Ex; repeat split; assumption|right; split; reflexivity].
    + destruct (Z.leb_spec (imax s - (l_p t - l_c t)) 0) as [Hfull|Havail]; [apply L; [rewrite Hz; reflexivity|exact Logic.I]|].
      destruct (irz s) eqn:Er; cbn [negb andb]; [apply L; [rewrite Hz; reflexivity|exact Logic.I]|].
      destruct (Z.eqb_spec (ip s) (l_p t)) as [Ep|Np]; [|apply L; [rewrite Hz; reflexivity|exact Logic.I]].
      (* this producer starts a resize *)
      constructor; cbn [ip ic ilim ibase ibcap imax igen irz iths]; try lia; [apply R; rewrite Hz; reflexivity|].
      intros j u Hj. thr Hj.
      * unfold th_ok. cbn [with_pc ipc_ l_lim l_p l_gen l_bcap l_c ip ic ilim ibase ibcap imax igen irz]. repeat split; lia.
      * apply (th_stable s _ u (v_ths s I j u Hj)); cbn [ip ic ilim ibase ibcap imax igen irz];
          [lia|lia|lia|lia|reflexivity|intros x _ Hx; exact Hx|intros E; discriminate E|left; apply (no_rz s I Er j u Hj)].
  - (* P4 *) destruct Ht as (A & B & C & D0 & D).
    destruct (irz s) eqn:Er; cbn [negb andb]; [apply L; [rewrite Hz; reflexivity|exact Logic.I]|].
    destruct (Z.eqb_spec (ip s) (l_p t)) as [Ep|Np]; [|apply L; [rewrite Hz; reflexivity|exact Logic.I]].
    (* the claim *)
    constructor; cbn [ip ic ilim ibase ibcap imax igen irz iths]; try lia; [apply R; rewrite Hz; reflexivity|].
    intros j u Hj. thr Hj; [exact Logic.I|].
    apply (th_stable s _ u (v_ths s I j u Hj)); cbn [ip ic ilim ibase ibcap imax igen irz];
      [lia|lia|lia|lia|reflexivity|intros x _ Hx; exact Hx|intros E x Hx Ex; lia|left; apply (no_rz s I Er j u Hj)].
  - (* R0: the new buffer *)
    destruct Ht as (A & B & C).
    assert (Hnc : ibcap s <= next_cap s <= imax s) by (unfold next_cap; lia).
    constructor; cbn [ip ic ilim ibase ibcap imax igen irz iths]; try lia; [apply R; rewrite Hz; reflexivity|].
    intros j u Hj. thr Hj.
    + unfold th_ok. cbn [with_pc ipc_ l_lim l_p l_gen l_bcap l_c ip ic ilim ibase ibcap imax igen irz]. repeat split; try assumption; lia.
    + apply (th_stable s _ u (v_ths s I j u Hj)); cbn [ip ic ilim ibase ibcap imax igen irz];
        [lia|lia|lia|lia|reflexivity|intros x Hx _; lia|intros E; rewrite A in E; discriminate E|left; apply (rz_unique s i t I Hi Hz j u); assumption].
  - (* R1: the resize becomes visible *)
    destruct Ht as (A & B & C).
    constructor; cbn [ip ic ilim ibase ibcap imax igen irz iths]; try lia; [apply R; rewrite Hz, A; reflexivity|].
    intros j u Hj. thr Hj; [exact Logic.I|].
    apply (th_stable s _ u (v_ths s I j u Hj)); cbn [ip ic ilim ibase ibcap imax igen irz];
      [lia|lia|lia|lia|reflexivity|intros x _ Hx; exact Hx|intros _ x Hx Ex; lia|left; apply (rz_unique s i t I Hi Hz j u); assumption].
  - exact I.
  - exact I.
  - exact I.
Qed.

Theorem IInv_cons s : IInv s -> IInv (icons s).
Proof.
  intros I. unfold icons. destruct (Z.ltb_spec (ic s) (ip s)) as [Hlt|Hge]; [|exact I].
  pose proof (v_cp s I) as Hcp. pose proof (v_base s I) as Hba. pose proof (v_caps s I) as Hca.
  pose proof (v_lim_buf s I) as Hlb. pose proof (v_lim_max s I) as Hlm. pose proof (v_p_lim s I) as Hpl.
  constructor; cbn [ip ic ilim ibase ibcap imax igen irz iths]; try lia.
  - apply (v_rz s I).
  - intros j u Hj. apply (th_stable s _ u (v_ths s I j u Hj)); cbn [ip ic ilim ibase ibcap imax igen irz];
      [lia|lia|lia|lia|reflexivity|intros x _ Hx; lia|intros E x Hx Ex; repeat split; assumption|right; split; reflexivity].
Qed.

Lemma IInv_init b0 mx n : 1 <= b0 <= mx -> IInv (iinit b0 mx n).
Proof.
  intros H. constructor; cbn [iinit ip ic ilim ibase ibcap imax igen irz iths]; try lia.
  - induction n as [|n IH]; [reflexivity|]. cbn [repeat]. rewrite rzc_cons. cbn. exact IH.
  - intros j t Hj. apply nth_error_In in Hj. apply repeat_spec in Hj. subst t. exact Logic.I.
Qed.

Theorem IInv_run es : forall s, IInv s -> IInv (irun s es).
Proof.
  induction es as [|e es IH]; intros s I; [exact I|]. cbn [irun fold_left]. apply IH.
  destruct e as [i|]; [apply IInv_step|apply IInv_cons]; exact I.
Qed.

(* the claim: when the CAS on the producer index succeeds, the mask/buffer read earlier are the current
   buffer's, the slot lies inside that buffer's free window, and the queue is below its capacity *)
Theorem claim_is_safe s i t : IInv s -> nth_error (iths s) i = Some t -> ipc_ t = P4 ->
  irz s = false -> ip s = l_p t ->
  l_gen t = igen s /\ l_bcap t = ibcap s /\
  Z.max (ic s) (ibase s) <= l_p t < Z.max (ic s) (ibase s) + ibcap s /\ l_p t - ic s < imax s.
Proof.
  intros I Hi Hp Er Ep. pose proof (v_ths s I i t Hi) as Ht. unfold th_ok in Ht. rewrite Hp in Ht.
  destruct Ht as (A & B & C & D0 & D). destruct (D Er Ep) as [G1 G2].
  pose proof (v_cp s I). pose proof (v_base s I). repeat split; try assumption; lia.
Qed.

Theorem size_bounded_always s : IInv s -> 0 <= ip s - ic s <= imax s.
Proof. intros I. pose proof (v_cp s I). pose proof (v_p_lim s I). pose proof (v_lim_max s I). lia. Qed.

Theorem limit_never_decreases s i : IInv s -> ilim s <= ilim (istep s i).
Proof.
  intros I. unfold istep. destruct (nth_error (iths s) i) as [t|] eqn:Hi; [|lia].
  pose proof (v_ths s I i t Hi) as Ht. pose proof (v_cp s I) as Hcp. pose proof (v_base s I) as Hba. pose proof (v_caps s I) as Hca.
  pose proof (v_lim_buf s I) as Hlb. pose proof (v_lim_max s I) as Hlm.
  cbv zeta. unfold th_ok in Ht. destruct (ipc_ t) eqn:Hp; cbn [set_ths ilim]; try lia.
  - destruct (irz s); cbn [set_ths ilim]; lia.
  - destruct (l_lim t <=? l_p t); cbn [set_ths ilim]; lia.
  - destruct Ht as (A & B & C & D0 & D1 & D).
    destruct (Z.ltb_spec (l_p t) (l_c t + l_bcap t)).
    + destruct (Z.eqb_spec (ilim s) (l_lim t)); cbn [set_ths ilim]; lia.
    + destruct (imax s - (l_p t - l_c t) <=? 0); [cbn [set_ths ilim]; lia|].
      destruct (negb (irz s) && (ip s =? l_p t)); cbn [set_ths ilim]; lia.
  - destruct (negb (irz s) && (ip s =? l_p t)); cbn [set_ths ilim]; lia.
  - destruct Ht as (A & B & C). unfold next_cap. lia.
Qed.

Theorem mpsc_index_safe b0 mx n es : 1 <= b0 <= mx ->
  let s := irun (iinit b0 mx n) es in
  0 <= ip s - ic s <= imax s /\
  forall i t, nth_error (iths s) i = Some t -> ipc_ t = P4 -> irz s = false -> ip s = l_p t ->
    l_gen t = igen s /\ l_bcap t = ibcap s /\
    Z.max (ic s) (ibase s) <= l_p t < Z.max (ic s) (ibase s) + ibcap s /\ l_p t - ic s < imax s.
Proof.
  intros H s. pose proof (IInv_run es _ (IInv_init b0 mx n H)) as I. fold s in I.
  split; [apply size_bounded_always; exact I|]. intros i t Hi Hp Er Ep. apply (claim_is_safe s i t I Hi Hp Er Ep).
Qed.
