(* StripedProofs.v — invariants of the striped-table model (Striped.v) under every schedule: the spin
   lock admits one thread; the current table is always the latest version and contains every cell of
   every older version; every ring ever created sits in exactly one cell of the current table; an
   element is in the rings exactly when its Add has placed it. *)
From Coq Require Import List Arith Bool Lia Permutation.
Import ListNotations.
From Otter Require Import Base Striped.
Local Open Scope nat_scope.

Definition b2n (b : bool) : nat := if b then 1 else 0.
Definition scnt (f : sthread -> bool) (l : list sthread) : nat := length (filter f l).

Lemma b2n_le1 b : b2n b <= 1.
Proof. destruct b; cbn; lia. Qed.

Lemma scnt_cons f t l : scnt f (t :: l) = b2n (f t) + scnt f l.
Proof. exact (count_cons f t l). Qed.

Lemma scnt_upd f x l i old :
  nth_error l i = Some old ->
  b2n (f old) <= scnt f l /\ scnt f (upd i x l) + b2n (f old) = scnt f l + b2n (f x).
Proof. exact (count_upd f x l i old). Qed.

Lemma nth_upd_eq {A} (l : list A) i x d : i < length l -> nth i (upd i x l) d = x.
Proof. apply nth_upd_same. Qed.

Definition crit (t : sthread) : bool :=
  match spc_ t with E4 | E5 | E7c | E8 | E9c | E9r => true | _ => false end.

Definition placed (t : sthread) : bool :=
  match spc_ t with SDone SrSuccess => true | E5 | E9r => flag t | _ => false end.

Definition zcount (e : Z) (l : list Z) : nat := length (filter (Z.eqb e) l).

Definition acc (e : Z) (t : sthread) : bool := Z.eqb e (elem t) && placed t.

Definition curtbl (tables : list (list (option nat))) (cur : option nat) : list (option nat) :=
  match cur with Some g => nth g tables [] | None => [] end.

(* the ring ids in the cells of a table, in cell order: [visible_rings] is [cells] of the current table *)
Definition cells (tb : list (option nat)) : list nat :=
  flat_map (fun c => match c with Some r => [r] | None => [] end) tb.

(* The table invariant speaks of the cells' content as a list where it can: the current table is the
   latest version and has every cell of every version; its cells hold the rings that exist, each once. *)
Definition TInv (tables : list (list (option nat))) (cur : option nat) (nr : nat) : Prop :=
  (match cur with None => tables = [] | Some g => S g = length tables end) /\
  Forall (fun tb => forall i r, nth i tb None = Some r -> nth i (curtbl tables cur) None = Some r) tables /\
  NoDup (cells (curtbl tables cur)) /\
  (forall r, In r (cells (curtbl tables cur)) <-> r < nr).

Lemma cells_nth tb i r : nth i tb None = Some r -> In r (cells tb).
Proof.
  intros H. apply in_flat_map. exists (Some r). split; [|left; reflexivity].
  destruct (nth_in_or_default i tb None) as [Hin|E]; [rewrite <- H; exact Hin|congruence].
Qed.

Lemma cells_fill x : forall tb j, j < length tb -> nth j tb None = None ->
  Permutation (cells (upd j (Some x) tb)) (x :: cells tb).
Proof.
  induction tb as [|c tb IH]; intros [|j] Hj Hn; cbn [length] in Hj; try lia; cbn [upd cells flat_map nth] in *.
  - subst c. reflexivity.
  - rewrite (IH j) by (assumption || lia). symmetry. apply Permutation_middle.
Qed.

Lemma cells_pad tb n : cells (tb ++ repeat None n) = cells tb.
Proof.
  unfold cells. rewrite flat_map_app. induction n as [|n IH]; [apply app_nil_r|exact IH].
Qed.

Lemma TInv_create tables g nr j :
  TInv tables (Some g) nr -> j < length (nth g tables []) -> nth j (nth g tables []) None = None ->
  TInv (upd g (upd j (Some nr) (nth g tables [])) tables) (Some g) (S nr).
Proof.
  intros (Hv & Hm & Hnd & Hin) Hj Hnone. unfold TInv. cbn [curtbl] in *.
  pose proof (cells_fill nr _ j Hj Hnone) as P.
  rewrite upd_length, nth_upd_same by lia. split; [exact Hv|]. split; [|split].
  - apply Forall_upd; [|auto]. revert Hm. apply Forall_impl. intros tb H i r Hi. specialize (H i r Hi).
    rewrite nth_upd_other; [exact H|]. intros <-. congruence.
  - apply (Permutation_NoDup (Permutation_sym P)). constructor; [|exact Hnd]. intros H. apply Hin in H. lia.
  - intros r. split.
    + intros H. apply (Permutation_in _ P) in H. destruct H as [<-|H]; [lia|apply Hin in H; lia].
    + intros H. apply (Permutation_in _ (Permutation_sym P)).
      destruct (Nat.eq_dec r nr) as [->|Hne]; [left; reflexivity|right; apply Hin; lia].
Qed.

Lemma TInv_expand tables g nr :
  TInv tables (Some g) nr ->
  TInv (tables ++ [nth g tables [] ++ repeat None (length (nth g tables []))]) (Some (length tables)) nr.
Proof.
  intros (Hv & Hm & Hnd & Hin). unfold TInv. cbn [curtbl] in *.
  rewrite app_length, nth_middle, cells_pad. cbn [length]. split; [lia|]. split; [|split; assumption].
  apply Forall_app. split; [|constructor; [auto|constructor]].
  revert Hm. apply Forall_impl. intros tb H i r Hi. specialize (H i r Hi). rewrite app_nth1; [exact H|].
  destruct (Nat.lt_ge_cases i (length (nth g tables []))) as [Hlt|Hge]; [exact Hlt|].
  rewrite nth_overflow in H by exact Hge. discriminate H.
Qed.

Lemma TInv_empty : TInv [] None 0.
Proof. split; [reflexivity|]. split; [constructor|]. split; [constructor|]. intros r. split; [intros []|lia]. Qed.

Lemma TInv_first : TInv [[Some 0]] (Some 0) 1.
Proof.
  split; [reflexivity|]. cbn. split; [|split].
  - constructor; [auto|constructor].
  - constructor; [intros []|constructor].
  - intros r. split; [intros [<-|[]]; lia|intros H; left; lia].
Qed.

Lemma TInv_none tables nr : TInv tables None nr -> tables = [] /\ nr = 0.
Proof.
  intros (Hv & _ & _ & Hin). split; [exact Hv|]. destruct nr as [|nr]; [reflexivity|]. destruct (proj2 (Hin 0) ltac:(lia)).
Qed.

Lemma cell_some tb i r : cell tb i = Some r -> nth (i mod length tb) tb None = Some r.
Proof. unfold cell. destruct (length tb); [discriminate|auto]. Qed.

Lemma zcount_app e l1 l2 : zcount e (l1 ++ l2) = zcount e l1 + zcount e l2.
Proof. unfold zcount. rewrite filter_app, app_length. reflexivity. Qed.

Lemma zcount_one e x : zcount e [x] = b2n (Z.eqb e x).
Proof. unfold zcount. cbn [filter]. destruct (Z.eqb e x); reflexivity. Qed.

Lemma zcount_concat_upd e x (rs : list (list Z)) : forall b,
  b < length rs ->
  zcount e (concat (upd b (nth b rs [] ++ [x]) rs)) = zcount e (concat rs) + b2n (Z.eqb e x).
Proof.
  induction rs as [|r rs IH]; intros b Hb; [cbn in Hb; lia|].
  destruct b as [|b]; cbn [upd concat nth]; rewrite !zcount_app.
  - rewrite zcount_one. lia.
  - rewrite IH by (cbn [length] in Hb; lia). lia.
Qed.

Lemma zcount_concat_snoc e x (rs : list (list Z)) :
  zcount e (concat (rs ++ [[x]])) = zcount e (concat rs) + b2n (Z.eqb e x).
Proof. rewrite concat_app, zcount_app. cbn [concat]. rewrite app_nil_r, zcount_one. reflexivity. Qed.

(* [flag] is raised only by the step that places the element under the lock, and read by the next *)
Definition flagok (t : sthread) : Prop :=
  match spc_ t with E5 | E9r | SDone _ => True | _ => flag t = false end.

Definition tok (nr : nat) (t : sthread) : Prop :=
  match spc_ t with A2 | E6 => buf t < nr | _ => True end /\ flagok t.

Lemma tok_mono nr nr' t : nr <= nr' -> tok nr t -> tok nr' t.
Proof. unfold tok. intros Hr (H1 & H2). split; [|exact H2]. destruct (spc_ t); auto; lia. Qed.

(* [es]: the elements of the Add calls, in thread order *)
Record Inv (es : list Z) (s : sstate) : Prop := {
  i_lock : scnt crit (sths s) = b2n (busy s);
  i_tbl : TInv (tables s) (cur s) (length (rings s));
  i_ths : forall j t, nth_error (sths s) j = Some t -> tok (length (rings s)) t;
  i_cnt : forall e, zcount e (concat (rings s)) = scnt (acc e) (sths s);
  i_elems : map elem (sths s) = es }.

Lemma map_elem_upd (l : list sthread) i T t :
  nth_error l i = Some t -> elem T = elem t -> map elem (upd i T l) = map elem l.
Proof.
  revert i. induction l as [|h r IH]; intros i H E; [destruct i; discriminate H|].
  destruct i; cbn [nth_error upd map] in *; [injection H as ->; rewrite E; reflexivity|rewrite (IH i H E); reflexivity].
Qed.

(* thread i moves from t to T while the shared state becomes (tbls', c', b', rs') *)
Lemma Inv_upd es tbls c b rs ths m i t T tbls' c' b' rs' :
  Inv es (mkSst tbls c b rs ths m) -> nth_error ths i = Some t ->
  (b2n (crit t) <= b2n b <= 1 -> b2n b' + b2n (crit t) = b2n b + b2n (crit T)) ->
  TInv tbls' c' (length rs') -> length rs <= length rs' -> tok (length rs') T -> elem T = elem t ->
  (forall e, zcount e (concat rs') + b2n (acc e t) = zcount e (concat rs) + b2n (acc e T)) ->
  Inv es (mkSst tbls' c' b' rs' (upd i T ths) m).
Proof.
  intros [HL HT HK HC HE] Hth Hlock HT' Hnr HK' He HC'. cbn [sths busy tables cur rings] in *.
  constructor; cbn [sths busy tables cur rings].
  - pose proof (scnt_upd crit T _ _ _ Hth). pose proof (b2n_le1 b). lia.
  - exact HT'.
  - apply upd_all; [|exact HK']. intros j u Hu. exact (tok_mono _ _ _ Hnr (HK j u Hu)).
  - intros e. pose proof (scnt_upd (acc e) T _ _ _ Hth). specialize (HC e). specialize (HC' e). lia.
  - rewrite (map_elem_upd _ _ _ _ Hth He). exact HE.
Qed.

Lemma Inv_local es tbls c b rs ths m i t T b' :
  Inv es (mkSst tbls c b rs ths m) -> nth_error ths i = Some t ->
  (b2n (crit t) <= b2n b <= 1 -> b2n b' + b2n (crit t) = b2n b + b2n (crit T)) ->
  tok (length rs) T -> elem T = elem t -> placed T = placed t ->
  Inv es (mkSst tbls c b' rs (upd i T ths) m).
Proof.
  intros I Hth Hl Hk He Hp. apply (Inv_upd es tbls c b rs ths m i t); auto; [exact (i_tbl _ _ I)|].
  intros e. unfold acc. rewrite He, Hp. reflexivity.
Qed.

(* ring.add succeeded (from A2 or E6): the element goes into ring [buf t] *)
Lemma Inv_record es tbls c b rs ths m i t :
  Inv es (mkSst tbls c b rs ths m) -> nth_error ths i = Some t -> spc_ t = A2 \/ spc_ t = E6 ->
  Inv es (mkSst tbls c b (upd (buf t) (nth (buf t) rs [] ++ [elem t]) rs) (upd i (with_pc t (SDone SrSuccess)) ths) m).
Proof.
  intros I Hth Hpc. destruct (i_ths _ _ I i t Hth) as (Hb & _). cbn [rings] in *.
  assert (Hbuf : buf t < length rs) by (destruct Hpc as [E|E]; rewrite E in Hb; exact Hb).
  assert (Hc : crit t = false /\ placed t = false) by (unfold crit, placed; destruct Hpc as [-> | ->]; auto).
  destruct Hc as [Hc Hp].
  apply (Inv_upd es tbls c b rs ths m i t); rewrite ?upd_length; auto.
  - rewrite Hc. reflexivity.
  - exact (i_tbl _ _ I).
  - repeat split.
  - intros e. rewrite zcount_concat_upd by exact Hbuf. unfold acc. rewrite Hp. unfold placed. cbn [with_pc spc_ elem].
    rewrite andb_false_r, andb_true_r. cbn [b2n]. lia.
Qed.

Lemma snapshot_cell_valid es s sn i r :
  Inv es s -> cell (tbl_of s sn) i = Some r -> r < length (rings s).
Proof.
  intros I Hc. destruct (i_tbl _ _ I) as (_ & Hm & _ & Hin). destruct sn as [g|]; [|discriminate Hc].
  apply cell_some in Hc. apply Hin, (cells_nth _ (i mod length (tbl_of s (Some g)))).
  revert Hc. apply (Forall_nth_default _ _ g [] Hm). intros [|k] ? H; discriminate H.
Qed.

(* closes a case of the walk below in which only the stepping thread's locals (and [busy]) change:
   with the thread's record and its pc explicit, the side conditions of Inv_local are computed *)
Ltac local :=
  eapply Inv_local;
  [eassumption | eassumption | cbn; lia | unfold tok, flagok; cbn; auto | reflexivity | reflexivity].

Lemma Inv_step es s i o : Inv es s -> Inv es (sstep s i o).
Proof.
  intros I. unfold sstep. destruct (nth_error (sths s) i) as [t|] eqn:Hth; [|exact I].
  destruct (i_ths _ _ I i t Hth) as (Hbuf & Hflag).
  assert (Hcell : forall r, cell (tbl_of s (snap t)) (idx t) = Some r -> r < length (rings s)).
  { intros r. apply (snapshot_cell_valid es), I. }
  pose proof (i_tbl _ _ I) as HT.
  unfold set_th. destruct s as [tbls c b rs ths m]. destruct t as [pc e ix sn bf att co wu fl].
  unfold flagok in Hflag.
  cbn [sths tables cur busy rings maxlen spc_ elem idx snap buf attempt collide wasunc flag] in *.
  destruct pc; cbn [with_pc retry spc_ elem idx snap buf attempt collide wasunc flag].
  - (* A0 *) destruct c; local.
  - (* A1 *) destruct (cell _ ix) as [r|]; [specialize (Hcell r eq_refl)|]; local.
  - (* A2 *) destruct o as [|[|o]]; [|local..]. apply (Inv_record es tbls c b rs ths m i _ I Hth). auto.
  - (* E1 *) destruct (3 <=? att); [local|]. destruct c; local.
  - (* E2 *) destruct (cell _ ix) as [r|]; [specialize (Hcell r eq_refl); destruct wu|]; local.
  - (* E3 *) destruct b; local.
  - (* E4: under the lock, create a ring in the cell if it is still empty *)
    subst fl. destruct c as [g|]; [|local].
    destruct (length (nth g tbls [])) eqn:El; [local|].
    destruct (cell (nth g tbls []) ix) eqn:Ec; [local|].
    unfold cell in Ec. rewrite El in Ec. rewrite <- El in *.
    eapply Inv_upd with (1 := I) (2 := Hth).
    + cbn. lia.
    + rewrite app_length, Nat.add_1_r. apply TInv_create; [exact HT|apply Nat.mod_upper_bound; lia|exact Ec].
    + rewrite app_length. lia.
    + unfold tok, flagok. cbn. auto.
    + reflexivity.
    + intros e'. rewrite zcount_concat_snoc. unfold acc. cbn. rewrite andb_false_r, andb_true_r. cbn [b2n]. lia.
  - (* E5 *) destruct fl; local.
  - (* E6 *) destruct o as [|[|o]]; [|local..]. apply (Inv_record es tbls c b rs ths m i _ I Hth). auto.
  - (* E6b *) destruct (_ || _); [local|]. destruct (negb co); local.
  - (* E7 *) destruct b; local.
  - (* E7c: under the lock, double the table if it is still the one the snapshot was taken of *)
    destruct c as [g|]; [|local]. destruct sn as [g'|]; [|local]. destruct (g =? g'); [|local].
    eapply Inv_upd with (1 := I) (2 := Hth).
    + cbn. lia.
    + apply TInv_expand. exact HT.
    + lia.
    + unfold tok, flagok. cbn. auto.
    + reflexivity.
    + reflexivity.
  - (* E8 *) local.
  - (* E9 *) destruct o as [|o]; [destruct b|]; local.
  - (* E9c: under the lock, create the first table and the first ring if there is still none *)
    subst fl. destruct c as [g|]; [local|].
    destruct (TInv_none _ _ HT) as [-> Hz]. destruct rs; [|discriminate Hz].
    eapply Inv_upd with (1 := I) (2 := Hth).
    + cbn. lia.
    + exact TInv_first.
    + cbn. lia.
    + unfold tok, flagok. cbn. auto.
    + reflexivity.
    + intros e'. rewrite zcount_concat_snoc. unfold acc. cbn. rewrite andb_false_r, andb_true_r. cbn [b2n]. lia.
  - (* E9r *) destruct fl; local.
  - (* SDone *) exact I.
Qed.

Lemma Inv_init maxl elems idxs : Inv (map fst (combine elems idxs)) (sinit maxl elems idxs).
Proof.
  unfold sinit. constructor; cbn [sths busy tables cur rings length b2n concat].
  - induction (combine elems idxs) as [|[e i] l IH]; [reflexivity|]. cbn [map]. rewrite scnt_cons. exact IH.
  - exact TInv_empty.
  - intros j t Hj. apply nth_error_In in Hj. apply in_map_iff in Hj. destruct Hj as ([e i] & <- & _).
    unfold tok, flagok. cbn. auto.
  - intros e. induction (combine elems idxs) as [|[e' i'] l IH]; [reflexivity|].
    cbn [map]. rewrite scnt_cons. unfold acc at 1, placed. cbn [spc_]. rewrite andb_false_r. exact IH.
  - rewrite map_map. apply map_ext. intros [e i]. reflexivity.
Qed.

Theorem Inv_run es sched : forall s, Inv es s -> Inv es (srun s sched).
Proof.
  induction sched as [|[i o] rest IH]; intros s H; [exact H|]. apply IH. apply Inv_step. exact H.
Qed.

(* no ring is ever lost: whatever has been created is reachable from the current table *)
Theorem no_lost_ring es s : Inv es s -> forall r, r < length (rings s) -> In r (visible_rings s).
Proof. intros I. apply (i_tbl _ _ I). Qed.

(* and no ring sits in two cells: a drain visits every ring once *)
Theorem visible_nodup es s : Inv es s -> NoDup (visible_rings s).
Proof. intros I. apply (i_tbl _ _ I). Qed.

Lemma visible_lt es s r : Inv es s -> In r (visible_rings s) -> r < length (rings s).
Proof. intros I. apply (i_tbl _ _ I). Qed.

Theorem busy_mutex es s : Inv es s -> scnt crit (sths s) <= 1.
Proof. intros I. rewrite (i_lock _ _ I). apply b2n_le1. Qed.

Lemma scnt_zero f (l : list sthread) : (forall u, In u l -> f u = false) -> scnt f l = 0.
Proof. apply count_zero. Qed.

(* among threads with distinct elements, only thread t counts for its own element *)
Lemma scnt_acc_unique (l : list sthread) : forall j t,
  NoDup (map elem l) -> nth_error l j = Some t -> scnt (acc (elem t)) l = b2n (placed t).
Proof.
  induction l as [|h r IH]; intros j t Hnd Hj; [destruct j; discriminate Hj|].
  cbn [map] in Hnd. inversion Hnd as [|? ? Hn Hnd']; subst. rewrite scnt_cons.
  destruct j as [|j]; cbn [nth_error] in Hj.
  - injection Hj as ->. unfold acc at 1. rewrite Z.eqb_refl. cbn [andb].
    rewrite scnt_zero; [lia|]. intros u Hu. unfold acc. destruct (Z.eqb_spec (elem t) (elem u)) as [E|]; [|reflexivity].
    exfalso. apply Hn. rewrite E. apply in_map. exact Hu.
  - rewrite (IH j t Hnd' Hj). unfold acc. destruct (Z.eqb_spec (elem t) (elem h)) as [E|]; [|reflexivity].
    exfalso. apply Hn. rewrite <- E. apply in_map. eapply nth_error_In. exact Hj.
Qed.

(* distinct elements, any schedule: an element is in the rings exactly once if its Add has succeeded
   (or is about to return Success), and not at all otherwise *)
Theorem recorded_iff_success maxl elems idxs sched j t :
  NoDup elems -> length idxs = length elems ->
  let s := srun (sinit maxl elems idxs) sched in
  nth_error (sths s) j = Some t ->
  zcount (elem t) (concat (rings s)) = b2n (placed t).
Proof.
  intros Hnd Hlen s Hj. pose proof (Inv_run _ sched _ (Inv_init maxl elems idxs)) as I. fold s in I.
  rewrite (i_cnt _ _ I). apply (scnt_acc_unique _ j t); [|exact Hj].
  rewrite (i_elems _ _ I). replace (map fst (combine elems idxs)) with elems; [exact Hnd|].
  clear -Hlen. revert idxs Hlen. induction elems as [|e es IH]; intros [|i is] Hl; cbn in *; try reflexivity; try lia.
  rewrite <- IH by lia. reflexivity.
Qed.
