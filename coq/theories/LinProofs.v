(* LinProofs.v — the order of decisive actions is a linearization (C02, action level).

   [sys_inv]: the log replayed through [Seq.step] reaches the shared table and the logged results.
   Statistics differ (the read phase of a two-phase operation counts at another moment than its
   replay), so states are compared by their tables ([same_tbl]) and [step] is shown to respect that. *)
From Otter Require Import Base Seq SeqRefine Lin.
From Coq Require Import ZifyBool.
Local Open Scope Z_scope.

Section L.
Variable c : cfg.
Hypothesis NoExp : with_exp c = false.

Lemma not_expired n now : has_expired c n now = false.
Proof. unfold has_expired. rewrite NoExp. reflexivity. Qed.

Lemma calc_exp_read_id k n now : calc_exp_read c k n now = n.
Proof. unfold calc_exp_read. rewrite NoExp. reflexivity. Qed.

Definition nodup (m : kmap) : Prop := NoDup (map fst m).

Lemma mutate_same k n m : nodup m -> lookup k m = Some n -> mutate k (fun _ => n) m = m.
Proof.
  unfold nodup. induction m as [|[k' x] m IH]; cbn [mutate map lookup fst snd]; intros Hnd L; [reflexivity|].
  inversion Hnd as [|? ? Hn Hd]; subst. destruct (Z.eqb_spec k' k) as [->|N]; f_equal.
  - congruence.
  - exact (mutate_notin k (fun _ => n) m Hn).
  - apply IH; assumption.
Qed.

(* without read-extension of deadlines getNode leaves the table as it is and returns the entry *)
Lemma get_node_noexp s k now : nodup (cmap s) ->
  exists st, get_node c s k now = (mkState (cmap s) st, lookup k (cmap s)).
Proof.
  intros Hnd. unfold get_node. destruct (lookup k (cmap s)) as [n|] eqn:L; [|eexists; reflexivity].
  rewrite not_expired, calc_exp_read_id, mutate_same by assumption. eexists. reflexivity.
Qed.

Definition same_tbl (s s' : cstate) : Prop := cmap s = cmap s'.

Lemma cmap_stat (b : bool) s g : cmap (if b then upd_st s g else s) = cmap s.
Proof. destruct b; reflexivity. Qed.

Lemma do_compute_congr s s' k f now rs rs' : same_tbl s s' ->
  same_tbl (fst (do_compute c s k f now rs)) (fst (do_compute c s' k f now rs')) /\
  r_ret (snd (do_compute c s k f now rs)) = r_ret (snd (do_compute c s' k f now rs')).
Proof.
  destruct s as [m st], s' as [m' st']. unfold same_tbl, do_compute. cbn [cmap]. intros <-.
  destruct (lookup k m) as [o|]; rewrite ?not_expired; destruct (f _ _) as [|v []];
    try destruct (atomic_set c k v _ NoCall now); cbn [fst]; rewrite ?cmap_stat; split; reflexivity.
Qed.

Lemma step_congr s s' o : kv_op o = true -> nodup (cmap s) -> same_tbl s s' ->
  same_tbl (fst (step c s o)) (fst (step c s' o)) /\ r_ret (snd (step c s o)) = r_ret (snd (step c s' o)).
Proof.
  intros Hk Hnd E. pose proof Hnd as Hnd'. rewrite E in Hnd'. destruct o; try discriminate; cbn [step];
    try (destruct (get_node_noexp s k now Hnd) as (st & ->), (get_node_noexp s' k now Hnd') as (st' & ->));
    try apply do_compute_congr; try assumption;
    unfold same_tbl, do_set, get_node_quietly, do_invalidate, do_auto in *; rewrite <- E.
  - destruct (atomic_set c k v _ NoCall now). split; reflexivity.
  - destruct (lookup k (cmap s)); rewrite ?not_expired; cbn [andb negb]; [|destruct (atomic_set c k v _ NoCall now)]; split; reflexivity.
  - split; reflexivity.
  - split; reflexivity.
  - split; [assumption|reflexivity].
  - destruct (lookup k (cmap s)); [split; reflexivity|apply do_compute_congr; reflexivity].
  - destruct (lookup k (cmap s)); [apply do_compute_congr; reflexivity|split; reflexivity].
  - split; reflexivity.
  - destruct (lookup k (cmap s)) as [n|]; [destruct ((nval n =? v) && _)|]; split; (assumption || reflexivity).
Qed.

Lemma nodup_put k n m : nodup m -> nodup (put k n m).
Proof.
  unfold nodup, put. intros H. cbn [map fst]. constructor; [|apply NoDup_remove; assumption].
  intros Hin. apply keys_remove in Hin. tauto.
Qed.

Lemma do_compute_nodup s k f now rs : nodup (cmap s) -> nodup (cmap (fst (do_compute c s k f now rs))).
Proof.
  intros H. pose proof (NoDup_remove k _ H). unfold do_compute.
  destruct (lookup k (cmap s)) as [o|]; rewrite ?not_expired; destruct (f _ _) as [|v []];
    try destruct (atomic_set c k v _ NoCall now); cbn [fst]; rewrite ?cmap_stat; try assumption; apply nodup_put; assumption.
Qed.

Lemma step_nodup s o : kv_op o = true -> nodup (cmap s) -> nodup (cmap (fst (step c s o))).
Proof.
  intros Hk H. pose proof (fun k => NoDup_remove k _ H) as Hr. destruct o; try discriminate; cbn [step];
    try (destruct (get_node_noexp s k now H) as (st & ->)); try apply do_compute_nodup; try assumption;
    unfold do_set, do_invalidate, do_auto.
  - destruct (atomic_set c k v _ NoCall now). apply nodup_put, H.
  - destruct (lookup k (cmap s)); rewrite ?not_expired; cbn [andb negb]; [|destruct (atomic_set c k v _ NoCall now); apply nodup_put, H].
    unfold nodup. cbn [fst cmap upd_map]. rewrite map_fst_mutate. assumption.
  - destruct (lookup k (cmap s)); [assumption|apply do_compute_nodup; assumption].
  - destruct (lookup k (cmap s)); [apply do_compute_nodup; assumption|assumption].
  - apply Hr.
  - destruct (lookup k (cmap s)) as [n|]; [destruct ((nval n =? v) && _)|]; try assumption. apply Hr.
Qed.

Definition two_phase (o : op) : Prop :=
  (exists k f now, o = OComputeIfAbsent k f now) \/ (exists k f now, o = OComputeIfPresent k f now).

(* the second phase, executed alone at any later state, is the whole operation executed atomically
   there: when the key's presence no longer is what the read saw, the wrapper of the user function
   cancels, which is what the whole operation's own read would have decided *)
Lemma phase2_is_atomic s o : two_phase o -> nodup (cmap s) ->
  same_tbl (fst (phase2 c s o)) (fst (step c s o)) /\ r_ret (snd (phase2 c s o)) = r_ret (snd (step c s o)).
Proof.
  intros [(k & f & now & ->)|(k & f & now & ->)] Hnd; cbn [phase2 step];
    destruct (get_node_noexp s k now Hnd) as (st & ->); destruct (lookup k (cmap s)) as [n|] eqn:L;
    try (apply do_compute_congr; reflexivity);
    unfold do_compute; rewrite L, ?not_expired; split; reflexivity.
Qed.

Lemma run_app s l o :
  run c s (l ++ [o]) =
  (fst (step c (fst (run c s l)) o), snd (run c s l) ++ [snd (step c (fst (run c s l)) o)]).
Proof.
  revert s. induction l as [|x l IH]; intros s; cbn [app run].
  - cbn [fst snd app]. destruct (step c s o) as [s1 r]. reflexivity.
  - destruct (step c s x) as [s1 r1]. rewrite IH. destruct (run c s1 l) as [s2 rs]. cbn [fst snd].
    destruct (step c s2 o) as [s3 r3]. reflexivity.
Qed.

Definition thread_ok (t : tstate) : Prop :=
  match t with
  | TIdle todo => forallb kv_op todo = true
  | TMid o todo => two_phase o /\ forallb kv_op todo = true
  end.

Record sys_inv (sys : lsys) : Prop := mkSysInv {
  si_nodup : nodup (cmap (shared sys));
  si_threads : forall i t, nth_error (threads sys) i = Some t -> thread_ok t;
  si_tbl : same_tbl (fst (run c cstate0 (map fst (linlog sys)))) (shared sys);
  si_rets : map r_ret (snd (run c cstate0 (map fst (linlog sys)))) = map snd (linlog sys);
  si_seq_nodup : nodup (cmap (fst (run c cstate0 (map fst (linlog sys)))))
}.

Lemma threads_ok_set ts i t :
  (forall j x, nth_error ts j = Some x -> thread_ok x) -> thread_ok t ->
  forall j x, nth_error (set_thread ts i t) j = Some x -> thread_ok x.
Proof. apply upd_all. Qed.

Lemma read_step sys st ts' :
  sys_inv sys -> (forall j x, nth_error ts' j = Some x -> thread_ok x) ->
  sys_inv (mkLsys (mkState (cmap (shared sys)) st) ts' (linlog sys)).
Proof. intros [Nd Th Tb Rt Sn] Hts. constructor; assumption. Qed.

Lemma log_step sys o s1 r ts' :
  sys_inv sys -> kv_op o = true ->
  same_tbl s1 (fst (step c (shared sys) o)) -> r = r_ret (snd (step c (shared sys) o)) ->
  (forall j x, nth_error ts' j = Some x -> thread_ok x) ->
  sys_inv (mkLsys s1 ts' (linlog sys ++ [(o, r)])).
Proof.
  intros [Nd Th Tb Rt Sn] Hk Hs Hr Hts.
  pose proof (step_congr _ (shared sys) o Hk Sn Tb) as [C1 C2].
  constructor; cbn [shared threads linlog]; rewrite ?map_app; cbn [map fst snd]; rewrite ?run_app; cbn [fst snd].
  - unfold same_tbl in Hs. unfold nodup. rewrite Hs. apply step_nodup; assumption.
  - assumption.
  - unfold same_tbl in *. congruence.
  - rewrite map_app, Rt. cbn [map]. congruence.
  - apply step_nodup; assumption.
Qed.

Theorem lin_step_inv sys i : sys_inv sys -> sys_inv (lin_step c sys i).
Proof.
  intros I. pose proof I as [Nd Th Tb Rt Sn]. unfold lin_step.
  destruct (nth_error (threads sys) i) as [[[|o todo]|o todo]|] eqn:Ei; try assumption.
  - pose proof (Th i _ Ei) as Tok. cbn [thread_ok forallb] in Tok. apply andb_true_iff in Tok. destruct Tok as [Hk Htodo].
    pose proof (threads_ok_set _ i (TIdle todo) Th Htodo) as Hidle.
    destruct o; try discriminate;
      try (destruct (step c (shared sys) _) as [s1 r] eqn:Es; apply log_step; rewrite ?Es; auto; reflexivity);
      destruct (get_node_noexp (shared sys) k now Nd) as (st & Eg); rewrite Eg;
      destruct (lookup k (cmap (shared sys))) as [n|] eqn:L.
    (* the read phase of a two-phase operation: either it decides, and is the whole operation, or
       the table is as it was and the thread goes on to its second phase *)
    + apply log_step; cbn [step]; rewrite ?Eg, ?L; auto; reflexivity.
    + apply read_step, threads_ok_set; try assumption. split; [left; eauto|assumption].
    + apply read_step, threads_ok_set; try assumption. split; [right; eauto|assumption].
    + apply log_step; cbn [step]; rewrite ?Eg, ?L; auto; reflexivity.
  - pose proof (Th i _ Ei) as [Htp Htodo].
    pose proof (phase2_is_atomic (shared sys) o Htp Nd) as [P1 P2].
    destruct (phase2 c (shared sys) o) as [s1 r]. apply log_step; auto.
    + destruct Htp as [(k & f & now & ->)|(k & f & now & ->)]; reflexivity.
    + apply threads_ok_set; assumption.
Qed.

Theorem lin_exec_inv sched : forall sys, sys_inv sys -> sys_inv (lin_exec c sys sched).
Proof.
  induction sched as [|i rest IH]; intros sys I; cbn [lin_exec fold_left]; [assumption|].
  apply IH. apply lin_step_inv. assumption.
Qed.

Lemma lin_init_inv progs : Forall (fun p => forallb kv_op p = true) progs -> sys_inv (lin_init progs).
Proof.
  intros H. constructor; cbn [lin_init shared threads linlog map run fst snd cstate0 cmap]; try reflexivity; try constructor.
  intros i t Hi. apply nth_error_In in Hi. apply in_map_iff in Hi. destruct Hi as (p & <- & Hp).
  rewrite Forall_forall in H. apply (H p Hp).
Qed.

End L.
