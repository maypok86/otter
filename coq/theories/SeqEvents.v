(* SeqEvents.v — C06 on the concrete model: a deletion event is emitted exactly when a node
   object leaves the table, carrying that node's key and value and the right cause; nothing is
   reported for nodes that stay.  Counting form: entries + events = previous entries + installs. *)
From Otter Require Import Base Seq Spec SeqRefine.
From Coq Require Import ZifyBool.
Local Open Scope Z_scope.

Section Ev.
Variable c : cfg.

Definition ev_of (k : Z) (o : option node) (now : Z) (dflt : cause) : list event :=
  match o with
  | Some old => [mkEvent k (nval old) (get_cause c old now dflt)]
  | None => []
  end.

(* what one index action on key k does to the table, the events it emits, and how many node
   objects it installs *)
Inductive ktrans (now k : Z) (m m' : kmap) (evs : list event) : nat -> Prop :=
| KSame : m' = m -> evs = [] -> ktrans now k m m' evs 0
| KMutate f : m' = mutate k f m -> (forall n, lookup k m = Some n -> nval (f n) = nval n) -> evs = [] -> ktrans now k m m' evs 0
| KPut n : m' = put k n m -> evs = ev_of k (lookup k m) now CReplacement -> ktrans now k m m' evs 1
| KDel : m' = remove k m -> evs = ev_of k (lookup k m) now CInvalidation -> ktrans now k m m' evs 0.

Lemma atomic_set_events k v old cl now : snd (atomic_set c k v old cl now) = ev_of k old now CReplacement.
Proof. unfold atomic_set, ev_of. destruct old; reflexivity. Qed.

Lemma atomic_delete_events k old now : atomic_delete c k old now = ev_of k old now CInvalidation.
Proof. unfold atomic_delete, ev_of. destruct old; reflexivity. Qed.

Lemma do_set_trans s k v oia now :
  exists ni, ktrans now k (cmap s) (cmap (fst (do_set c s k v oia now))) (r_events (snd (do_set c s k v oia now))) ni.
Proof.
  unfold do_set.
  destruct (oia && match lookup k (cmap s) with Some o => negb (has_expired c o now) | None => false end) eqn:E.
  - destruct (lookup k (cmap s)) as [o|] eqn:L.
    + exists 0%nat. eapply KMutate; cbn [fst snd cmap upd_map r_events res0]; [reflexivity| |reflexivity].
      intros n Ln. rewrite L in Ln. injection Ln as <-. apply (calc_exp_read_fields c k o now).
    + exists 0%nat. apply KSame; reflexivity.
  - pose proof (atomic_set_events k v (lookup k (cmap s)) NoCall now) as Ev.
    destruct (atomic_set c k v (lookup k (cmap s)) NoCall now) as [n evs]. cbn [snd] in Ev.
    exists 1%nat. eapply KPut; cbn [fst snd cmap upd_map r_events]; [reflexivity|assumption].
Qed.

Lemma do_invalidate_trans s k now :
  ktrans now k (cmap s) (cmap (fst (do_invalidate c s k now))) (r_events (snd (do_invalidate c s k now))) 0.
Proof.
  unfold do_invalidate. apply KDel; cbn [fst snd cmap upd_map r_events]; [reflexivity|apply atomic_delete_events].
Qed.

Lemma do_compute_trans s k f now rs :
  exists ni, ktrans now k (cmap s) (cmap (fst (do_compute c s k f now rs))) (r_events (snd (do_compute c s k f now rs))) ni.
Proof.
  unfold do_compute.
  destruct (f _ _) as [|v []].
  - exists 0%nat. apply KSame; reflexivity.
  - destruct (lookup k (cmap s)) as [o|] eqn:L.
    + destruct (has_expired c o now) eqn:X.
      * exists 0%nat. apply KDel; [destruct rs; reflexivity|]. cbn [snd r_events]. rewrite <- L. apply atomic_delete_events.
      * exists 0%nat. apply KSame; [destruct rs; reflexivity|reflexivity].
    + exists 0%nat. apply KSame; [destruct rs; reflexivity|reflexivity].
  - pose proof (atomic_set_events k v (lookup k (cmap s)) NoCall now) as Ev.
    destruct (atomic_set c k v (lookup k (cmap s)) NoCall now) as [n evs]. cbn [snd] in Ev.
    exists 1%nat. eapply KPut; [destruct rs; reflexivity|]. cbn [snd r_events]. assumption.
  - exists 0%nat. apply KDel; [destruct rs; reflexivity|]. cbn [snd r_events]. apply atomic_delete_events.
  - exists 0%nat. apply KSame; reflexivity.
Qed.

Lemma finish_call_trans s k oc ir now :
  exists ni, ktrans now k (cmap s) (cmap (fst (finish_call c s k oc ir now))) (snd (finish_call c s k oc ir now)) ni.
Proof.
  destruct (outcome_failed oc) eqn:F.
  { rewrite finish_call_failed by assumption. unfold fin_err. exists 0%nat.
    destruct (lookup k (cmap s)); [destruct ir|]; try (apply KSame; reflexivity).
    eapply KMutate; [reflexivity| |reflexivity]. intros n0 _. apply calc_refr_fields. }
  destruct oc as [v| | |]; try discriminate; unfold finish_call.
  - pose proof (atomic_set_events k v (lookup k (cmap s)) (Call ir false false) now) as Ev.
    destruct (atomic_set c k v (lookup k (cmap s)) (Call ir false false) now) as [n evs]. cbn [snd] in Ev.
    exists 1%nat. eapply KPut; [reflexivity|assumption].
  - exists 0%nat. apply KDel; [reflexivity|apply atomic_delete_events].
Qed.

(* an accepted automatic removal drops exactly the reported node and reports it with the given cause *)
Lemma do_auto_trans s k v cs now :
  r_ret (snd (do_auto c s k v cs now)) = RNone ->
  exists n, lookup k (cmap s) = Some n /\ nval n = v /\
            cmap (fst (do_auto c s k v cs now)) = remove k (cmap s) /\
            r_events (snd (do_auto c s k v cs now)) = [mkEvent k v cs].
Proof.
  unfold do_auto. destruct (lookup k (cmap s)) as [n|]; [|intros H; discriminate H].
  destruct ((nval n =? v) && _) eqn:E; [|intros H; discriminate H].
  intros _. exists n. apply andb_true_iff in E. destruct E as [E _]. repeat split; try reflexivity. lia.
Qed.

Lemma length_remove k m : NoDup (map fst m) ->
  (length (remove k m) + match lookup k m with Some _ => 1 | None => 0 end = length m)%nat.
Proof.
  induction m as [|[k' n] m IH]; cbn [remove filter lookup map fst length]; intros Hnd; [reflexivity|].
  inversion Hnd as [|? ? Hn Hd]; subst. fold (remove k m).
  destruct (k' =? k) eqn:E; cbn [negb length].
  - apply Z.eqb_eq in E. subst k'. rewrite remove_notin by assumption. lia.
  - rewrite <- (IH Hd). lia.
Qed.

Theorem ktrans_conservation now k m m' evs ni :
  NoDup (map fst m) -> ktrans now k m m' evs ni ->
  (length m' + length evs = length m + ni)%nat.
Proof.
  intros Hnd T. pose proof (length_remove k m Hnd) as H.
  destruct T as [-> ->|f -> _ ->|n -> ->| -> ->]; unfold put, mutate, ev_of in *; cbn [length] in *;
    rewrite ?map_length; destruct (lookup k m); cbn [length] in *; lia.
Qed.

(* the cause is Expiration exactly when the dropped node's deadline had passed at the action's
   clock, otherwise the action's own cause *)
Theorem event_cause k old now dflt e :
  In e (ev_of k (Some old) now dflt) ->
  ekey e = k /\ evalue e = nval old /\
  (has_expired c old now = true -> ecause e = CExpiration) /\
  (has_expired c old now = false -> ecause e = dflt).
Proof.
  intros [<-|[]]. unfold get_cause. cbn. repeat split; intros H; rewrite H; reflexivity.
Qed.

Lemma invalidate_all_events s now :
  length (r_events (snd (do_invalidate_all c s now))) = length (cmap s) /\ cmap (fst (do_invalidate_all c s now)) = [].
Proof. unfold do_invalidate_all. cbn. rewrite map_length. auto. Qed.

End Ev.
