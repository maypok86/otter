(* WheelInv.v — the placement invariant of the hierarchical timer wheel (Wheel.v), preserved by every
   link / unlink / sweep, and the completeness of the sweep it implies (C13): after DeleteExpired at
   [now], no timer whose placement key (max of its deadline and the wheel's time when it was linked)
   lies in an earlier tick than [now] is left, unless its deadline was extended to [now] or later.
   Real constants: 5 levels, 64/64/32/4/1 buckets, shifts 30/36/42/47/49. *)
From Otter Require Import Base Wheel WheelFacts.
From Coq Require Import ZifyBool Lia.
Local Open Scope Z_scope.

Definition P0 : Z := 1073741824.            (* 2^30 *)
Definition P1 : Z := 68719476736.           (* 2^36 *)
Definition P2 : Z := 4398046511104.         (* 2^42 *)
Definition P3 : Z := 140737488355328.       (* 2^47 *)
Definition P4 : Z := 562949953421312.       (* 2^49 *)

Definition PW (i : nat) : Z := nth i [P0; P1; P2; P3; P4] 1.
Definition NB (i : nat) : Z := nthZ nbuckets i.
Definition NBn (i : nat) : nat := nth i [64; 64; 32; 4; 1]%nat 0%nat.

(* PW i is the tick of level i, NB i its number of buckets *)
Lemma PW_pos i : 0 < PW i.
Proof. destruct i as [|[|[|[|[|[|i]]]]]]; reflexivity. Qed.

Lemma NB_pos i : (i < 5)%nat -> 0 < NB i.
Proof. intros H. destruct i as [|[|[|[|[|i]]]]]; try lia; reflexivity. Qed.

Lemma NB_NBn i : (i < 5)%nat -> NB i = Z.of_nat (NBn i).
Proof. intros H. destruct i as [|[|[|[|[|i]]]]]; try lia; reflexivity. Qed.

Lemma PW_S i : (i < 4)%nat -> PW (S i) = PW i * NB i.
Proof. intros H. destruct i as [|[|[|[|i]]]]; try lia; reflexivity. Qed.

Lemma shr_level i x : (i < 5)%nat -> Z.shiftr x (nthZ shifts i) = x / PW i.
Proof.
  intros Hi. destruct i as [|[|[|[|[|i]]]]]; try lia; cbn [nthZ shifts nth PW];
    rewrite Z.shiftr_div_pow2 by lia; reflexivity.
Qed.

Lemma land_pow2 x n : 0 <= n -> Z.land x (2 ^ n - 1) = x mod 2 ^ n.
Proof. intros Hn. rewrite <- Z.land_ones by exact Hn. rewrite Z.ones_equiv. reflexivity. Qed.

Lemma land_level i x : (i < 5)%nat -> Z.land x (NB i - 1) = x mod NB i.
Proof.
  intros Hi. destruct i as [|[|[|[|[|i]]]]]; try lia;
    [apply (land_pow2 x 6)|apply (land_pow2 x 6)|apply (land_pow2 x 5)|apply (land_pow2 x 2)|apply (land_pow2 x 0)]; lia.
Qed.

Lemma div_ahead p a b : 0 < p -> a + p <= b -> a / p < b / p.
Proof.
  intros Hp H. apply Z.lt_le_trans with ((a + 1 * p) / p).
  - rewrite Z.div_add by lia. lia.
  - apply Z.div_le_mono; lia.
Qed.

Lemma div_within p n a b : 0 < p -> b < a + p * n -> b / p <= a / p + n.
Proof. intros Hp H. rewrite <- Z.div_add by lia. apply Z.div_le_mono; lia. Qed.

Lemma div_lt_le p q a b : 0 < p -> 0 < q -> a / p < b / p -> a / q <= b / q.
Proof.
  intros Hp Hq H. apply Z.div_le_mono; [exact Hq|].
  destruct (Z_lt_ge_dec a b) as [L|G]; [lia|]. pose proof (Z.div_le_mono b a p Hp). lia.
Qed.

Lemma div_eq_mul a b p m : 0 < p -> 0 < m -> a / p = b / p -> a / (p * m) = b / (p * m).
Proof. intros Hp Hm E. rewrite <- !Z.div_div by lia. rewrite E. reflexivity. Qed.

Lemma tick_eq_mono k i a b : (k <= i < 5)%nat -> a / PW k = b / PW k -> a / PW i = b / PW i.
Proof.
  intros [Hk Hi] E. induction Hk as [|i Hk IH]; [exact E|].
  rewrite PW_S by lia. apply div_eq_mul; [apply PW_pos|apply NB_pos; lia|apply IH; lia].
Qed.

(* a level's tick moves from pt to ct: the slots visited (from pt's on, at most one revolution) include
   that of every tick te in between *)
Lemma slot_cover nb pt ct te : 0 < nb -> 0 <= pt <= te -> te <= ct -> te <= pt + nb ->
  exists m, 0 <= m < Z.min (ct - pt + 1) nb /\ (pt mod nb + m) mod nb = te mod nb.
Proof.
  intros Hnb Hpt Hct Hrev.
  destruct (Z_lt_ge_dec (te - pt) nb) as [L|G].
  - exists (te - pt). split; [lia|]. rewrite Zplus_mod_idemp_l. f_equal. lia.
  - exists 0. split; [lia|]. rewrite Zplus_mod_idemp_l. replace te with (pt + 1 * nb) by lia.
    rewrite Z_mod_plus_full. f_equal. lia.
Qed.

Definition shape (w : wheel) : Prop := map (@length (list timer)) (wlevels w) = [64; 64; 32; 4; 1]%nat.
Definition bucket (w : wheel) (i j : nat) : list timer := nth j (nth i (wlevels w) []) [].

Lemma shape_len w : shape w -> length (wlevels w) = 5%nat.
Proof. unfold shape. intros H. rewrite <- (map_length (@length (list timer))). rewrite H. reflexivity. Qed.

Lemma shape_level w i : shape w -> length (nth i (wlevels w) []) = NBn i.
Proof.
  unfold shape, NBn. intros H.
  change (length (nth i (wlevels w) [])) with (length (nth i (wlevels w) (@nil (list timer)))).
  rewrite <- (map_nth (@length (list timer))). rewrite H. reflexivity.
Qed.

Lemma bucket_out_level w i j : shape w -> (5 <= i)%nat -> bucket w i j = [].
Proof.
  intros H Hi. unfold bucket. rewrite (nth_overflow (wlevels w)) by (rewrite (shape_len w H); lia).
  destruct j; reflexivity.
Qed.

Lemma bucket_out_slot w i j : shape w -> (NBn i <= j)%nat -> bucket w i j = [].
Proof. intros H Hj. unfold bucket. apply nth_overflow. rewrite (shape_level w i H). exact Hj. Qed.

Lemma in_bucket_range w i j t : shape w -> In t (bucket w i j) -> (i < 5)%nat /\ (j < NBn i)%nat.
Proof.
  intros H Hin. split.
  - destruct (Nat.lt_ge_cases i 5) as [L|G]; [exact L|]. rewrite (bucket_out_level w i j H G) in Hin. destruct Hin.
  - destruct (Nat.lt_ge_cases j (NBn i)) as [L|G]; [exact L|]. rewrite (bucket_out_slot w i j H G) in Hin. destruct Hin.
Qed.

Lemma upd_bucket_shape ls i j f :
  map (@length (list timer)) (upd_bucket ls i j f) = map (@length (list timer)) ls.
Proof.
  unfold upd_bucket. revert i. induction ls as [|l ls IH]; intros [|i]; cbn [upd map nth]; try reflexivity.
  - rewrite upd_length. reflexivity.
  - f_equal.
    (* the inner update reads level i of the tail *)
    specialize (IH i). cbn [nth] in IH. exact IH.
Qed.

Lemma upd_bucket_get ls i j f i' j' :
  (i < length ls)%nat -> (j < length (nth i ls []))%nat ->
  nth j' (nth i' (upd_bucket ls i j f) []) [] =
  if (Nat.eqb i' i && Nat.eqb j' j)%bool then f (nth j (nth i ls []) []) else nth j' (nth i' ls []) [].
Proof.
  intros Hi Hj. unfold upd_bucket.
  destruct (Nat.eqb_spec i' i) as [->|Ni].
  - rewrite nth_upd_same by exact Hi.
    destruct (Nat.eqb_spec j' j) as [->|Nj]; cbn [andb].
    + rewrite nth_upd_same by exact Hj. reflexivity.
    + rewrite nth_upd_other by congruence. reflexivity.
  - cbn [andb]. rewrite nth_upd_other by congruence. reflexivity.
Qed.

(* timer [t] may sit in bucket (i, j) when the wheel's time is T: its key's level-i tick selects
   the slot, lies ahead of T's (strictly, above level 0) and within one revolution *)
Definition placed (T : Z) (i j : nat) (t : timer) : Prop :=
  let e := tkey t in
  (i < 5)%nat /\ 0 <= e < two63 /\
  ((i < 4)%nat -> j = Z.to_nat ((e / PW i) mod NB i) /\ e / PW i <= T / PW i + NB i) /\
  (i = 4%nat -> j = 0%nat) /\
  (i = 0%nat -> T / PW 0 <= e / PW 0) /\
  (i <> 0%nat -> T / PW i < e / PW i).

Lemma placed_tick_eq T T' i j t : T / PW i = T' / PW i -> placed T i j t -> placed T' i j t.
Proof.
  unfold placed. intros E (H1 & H2 & H3 & H4 & H5 & H6).
  split; [exact H1|]. split; [exact H2|]. split; [|split; [exact H4|split]].
  - intros L. rewrite <- E. apply H3. exact L.
  - intros ->. rewrite <- E. apply H5. reflexivity.
  - intros N. rewrite <- E. apply H6. exact N.
Qed.

(* "swept within a tick" rests on this *)
Lemma placed_tick0 T i j t : placed T i j t -> T / P0 <= tkey t / P0.
Proof.
  intros (_ & _ & _ & _ & H0 & Hi). destruct (Nat.eq_dec i 0) as [->|N]; [exact (H0 eq_refl)|].
  apply (div_lt_le (PW i)); [apply PW_pos|reflexivity|exact (Hi N)].
Qed.

Definition Inv (w : wheel) : Prop :=
  shape w /\ 0 <= wtime w /\ forall i j t, In t (bucket w i j) -> placed (wtime w) i j t.

Lemma shape_wheel0 : shape wheel0.
Proof. reflexivity. Qed.

Lemma bucket_wheel0 i j : bucket wheel0 i j = [].
Proof.
  unfold bucket, wheel0. cbn [wlevels].
  change (@nil (list timer)) with (empty_level 0). rewrite map_nth. apply nth_repeat.
Qed.

Lemma inv_wheel0 : Inv wheel0.
Proof.
  split; [exact shape_wheel0|]. split; [reflexivity|]. intros i j t H. rewrite bucket_wheel0 in H. destruct H.
Qed.

Lemma find_level_spec d :
  let l := find_level d 0 span_next in
  (l < 5)%nat /\ ((l < 4)%nat -> d < PW (S l)) /\ (l <> 0%nat -> PW l <= d).
Proof.
  change span_next with [PW 1; PW 2; PW 3; PW 4]. cbn [find_level].
  destruct (Z.ltb_spec d (PW 1)); [|destruct (Z.ltb_spec d (PW 2)); [|destruct (Z.ltb_spec d (PW 3));
    [|destruct (Z.ltb_spec d (PW 4))]]]; cbv zeta; repeat split; intros; lia.
Qed.

(* findBucket takes a deadline behind the wheel's time for the wheel's time *)
Definition clamp (w : wheel) (e : Z) : Z := if e <? wtime w then wtime w else e.

Lemma clamp_id w e : wtime w <= e -> clamp w e = e.
Proof. unfold clamp. intros H. destruct (e <? wtime w) eqn:E; lia. Qed.

Lemma find_bucket_clamp w e : find_bucket w e = find_bucket w (clamp w e).
Proof.
  unfold find_bucket, clamp. destruct (e <? wtime w) eqn:E; [|rewrite E; reflexivity].
  rewrite Z.ltb_irrefl. reflexivity.
Qed.

Lemma find_bucket_spec w e id :
  0 <= wtime w -> wtime w <= e < two63 ->
  exists lvl slot, find_bucket w e = (lvl, slot, e) /\ (slot < NBn lvl)%nat /\
    placed (wtime w) lvl slot (mkTimer id e).
Proof.
  intros HT He. unfold find_bucket.
  replace (e <? wtime w) with false by lia.
  rewrite wrapu_id by (unfold in_u64, two64, two63 in *; lia).
  destruct (find_level_spec (e - wtime w)) as (L5 & Lup & Llo).
  set (l := find_level (e - wtime w) 0 span_next) in *.
  pose proof (PW_pos l) as Hp.
  assert (Pl : forall j, ((l < 4)%nat -> j = Z.to_nat ((e / PW l) mod NB l)) -> (l = 4%nat -> j = 0%nat) ->
                         placed (wtime w) l j (mkTimer id e)).
  { intros j J1 J2. unfold placed. cbn [tkey]. split; [exact L5|]. split; [lia|]. split; [|split; [exact J2|split]].
    - intros L4. split; [exact (J1 L4)|]. apply div_within; [exact Hp|]. rewrite <- PW_S by exact L4.
      specialize (Lup L4). lia.
    - intros _. apply Z.div_le_mono; [apply PW_pos|lia].
    - intros N. apply div_ahead; [exact Hp|]. specialize (Llo N). lia. }
  destruct (Nat.ltb_spec l 4) as [L4|G4].
  - change (nthZ nbuckets l) with (NB l). rewrite shr_level, land_level by exact L5.
    eexists _, _. split; [reflexivity|]. split; [|apply Pl; [reflexivity|lia]].
    pose proof (Z.mod_pos_bound (e / PW l) (NB l) (NB_pos l L5)). pose proof (NB_NBn l L5). lia.
  - replace l with 4%nat in Pl by lia.
    exists 4%nat, 0%nat. split; [reflexivity|]. split; [cbn; lia|apply Pl; [lia|reflexivity]].
Qed.

Lemma wheel_add_shape w id e : shape w -> shape (wheel_add w id e).
Proof.
  unfold shape, wheel_add. intros H. destruct (find_bucket w e) as [[l s] k]. cbn [wlevels].
  rewrite upd_bucket_shape. exact H.
Qed.

Lemma wheel_add_bucket w id e : shape w -> 0 <= wtime w < two63 -> 0 <= e < two63 ->
  exists lvl slot, placed (wtime w) lvl slot (mkTimer id (clamp w e)) /\
    forall i j t, In t (bucket (wheel_add w id e) i j) <->
      In t (bucket w i j) \/ (i = lvl /\ j = slot /\ t = mkTimer id (clamp w e)).
Proof.
  intros Hs HT He.
  assert (Hc : wtime w <= clamp w e < two63) by (unfold clamp; destruct (e <? wtime w) eqn:E; lia).
  destruct (find_bucket_spec w (clamp w e) id (proj1 HT) Hc) as (lvl & slot & F & L & Pl).
  exists lvl, slot. split; [exact Pl|]. intros i j t.
  unfold wheel_add. rewrite find_bucket_clamp, F. unfold bucket. cbn [wlevels].
  rewrite upd_bucket_get.
  - destruct (Nat.eqb_spec i lvl) as [->|Ni]; [destruct (Nat.eqb_spec j slot) as [->|Nj]|]; cbn [andb].
    + rewrite in_app_iff. cbn [In]. intuition congruence.
    + intuition congruence.
    + intuition congruence.
  - rewrite (shape_len w Hs). apply Pl.
  - rewrite (shape_level w lvl Hs). exact L.
Qed.

Lemma wheel_add_inv w id e : Inv w -> 0 <= e < two63 -> wtime w < two63 -> Inv (wheel_add w id e).
Proof.
  intros (Hs & HT & Hp) He HT2.
  destruct (wheel_add_bucket w id e Hs (conj HT HT2) He) as (lvl & slot & Pl & B).
  split; [apply wheel_add_shape; exact Hs|]. rewrite wheel_add_time. split; [exact HT|].
  intros i j t Hin. apply B in Hin. destruct Hin as [Hin|(-> & -> & ->)]; [apply Hp; exact Hin|exact Pl].
Qed.

Lemma wheel_delete_shape w id : shape w -> shape (wheel_delete w id).
Proof.
  unfold shape, wheel_delete. cbn [wlevels]. intros H. rewrite map_map.
  rewrite <- H. apply map_ext. intros l. apply map_length.
Qed.

Lemma wheel_delete_bucket w id i j :
  bucket (wheel_delete w id) i j = filter (fun t => negb (tid t =? id)) (bucket w i j).
Proof.
  unfold bucket, wheel_delete. cbn [wlevels].
  change (@nil (list timer)) with (map (filter (fun t => negb (tid t =? id))) (@nil (list timer))) at 1.
  rewrite map_nth.
  change (@nil timer) with (filter (fun t => negb (tid t =? id)) (@nil timer)) at 1.
  rewrite map_nth. reflexivity.
Qed.

Lemma wheel_delete_inv w id : Inv w -> Inv (wheel_delete w id).
Proof.
  intros (Hs & HT & Hp). split; [apply wheel_delete_shape; exact Hs|]. split; [exact HT|].
  intros i j t Hin. rewrite wheel_delete_bucket in Hin. apply filter_In in Hin. apply Hp. apply Hin.
Qed.

Lemma wheel_delete_gone w id i j t : In t (bucket (wheel_delete w id) i j) -> tid t <> id.
Proof. rewrite wheel_delete_bucket. intros H. apply filter_In in H. destruct H as [_ H]. lia. Qed.

Definition tin (w : wheel) (t : timer) : Prop := exists i j, In t (bucket w i j).

Lemma tin_add w id e t : shape w -> 0 <= wtime w < two63 -> 0 <= e < two63 -> tin w t -> tin (wheel_add w id e) t.
Proof.
  intros Hs HT He (i & j & Hin). destruct (wheel_add_bucket w id e Hs HT He) as (lvl & slot & _ & B).
  exists i, j. apply B. left. exact Hin.
Qed.

Definition clear_bucket (w : wheel) (i j : nat) : wheel :=
  mkWheel (wtime w) (upd_bucket (wlevels w) i j (fun _ => [])).

Lemma clear_bucket_in w i j i' j' t : shape w -> (i < 5)%nat -> (j < NBn i)%nat ->
  In t (bucket (clear_bucket w i j) i' j') <-> In t (bucket w i' j') /\ ~ (i' = i /\ j' = j).
Proof.
  intros Hs Hi Hj. unfold bucket, clear_bucket. cbn [wlevels]. rewrite upd_bucket_get.
  - destruct (Nat.eqb_spec i' i) as [->|Ni]; [destruct (Nat.eqb_spec j' j) as [->|Nj]|]; cbn [andb In]; tauto.
  - rewrite (shape_len w Hs). exact Hi.
  - rewrite (shape_level w i Hs). exact Hj.
Qed.

(* the slots of level i that deleteExpiredFromBucket visits: [steps] of them from [start] on *)
Definition visited (i : nat) (start : Z) (steps j : nat) : Prop :=
  exists m, (m < steps)%nat /\ j = Z.to_nat ((start + Z.of_nat m) mod NB i).

Lemma visited_0 i start j : ~ visited i start 0 j.
Proof. intros (m & Hm & _). lia. Qed.

Lemma visited_S i start n j :
  visited i start (S n) j -> j = Z.to_nat (start mod NB i) \/ visited i (start + 1) n j.
Proof.
  intros (m & Hm & ->). destruct m as [|m].
  - left. f_equal. f_equal. lia.
  - right. exists m. split; [lia|]. f_equal. f_equal. lia.
Qed.

Section Sweep.
Variable cur : Z -> Z.
Variables prev now : Z.
Hypothesis Hprev : 0 <= prev <= now.
Hypothesis Hcur : forall id, 0 <= cur id < two63.
Variable w0 : wheel.          (* the wheel before the sweep, for the "nothing is lost" part *)

(* while the sweep runs, U i j holds of the buckets it has still to visit: every timer is placed with
   respect to the new time, or still with respect to the old one in such a bucket *)
Definition Q (U : nat -> nat -> Prop) (w : wheel) : Prop :=
  shape w /\ wtime w = now /\
  forall i j t, In t (bucket w i j) -> placed now i j t \/ (U i j /\ placed prev i j t).

(* nothing is lost: [pend] is the detached bucket; a timer whose deadline is not before [now] was re-linked *)
Definition Tr (w : wheel) (acc : list Z) (pend : list timer) : Prop :=
  forall t, tin w0 t -> In (tid t) acc \/ tin w t \/ In t pend \/ now <= cur (tid t).

Lemma Q_settle (U U' : nat -> nat -> Prop) w :
  (forall i j t, U i j -> placed prev i j t -> placed now i j t \/ U' i j) -> Q U w -> Q U' w.
Proof.
  intros HU (Hs & Ht & Hp). split; [exact Hs|]. split; [exact Ht|].
  intros i j t Hin. destruct (Hp i j t Hin) as [H|[H1 H2]]; [left; exact H|].
  destruct (HU i j t H1 H2) as [H|H]; [left; exact H|right; split; [exact H|exact H2]].
Qed.

Lemma Q_add U w id e : Q U w -> now <= e < two63 -> Q U (wheel_add w id e).
Proof.
  intros (Hs & Ht & Hp) He.
  destruct (wheel_add_bucket w id e Hs) as (lvl & slot & Pl & B); [lia|lia|].
  rewrite clamp_id in Pl, B by lia. rewrite Ht in Pl.
  split; [apply wheel_add_shape; exact Hs|]. split; [rewrite wheel_add_time; exact Ht|].
  intros i j t Hin. apply B in Hin. destruct Hin as [Hin|(-> & -> & ->)]; [apply Hp; exact Hin|left; exact Pl].
Qed.

Lemma sweep_timers_QT U ts : forall w acc w' acc',
  Q U w -> Tr w acc ts -> sweep_timers cur w ts acc = (w', acc') -> Q U w' /\ Tr w' acc' [].
Proof.
  induction ts as [|t ts IH]; intros w acc w' acc' HQ HT; cbn [sweep_timers].
  - intros [= <- <-]. split; assumption.
  - destruct (cur (tid t) <? wtime w) eqn:E.
    + apply IH; [exact HQ|].
      intros t' Hin. specialize (HT t' Hin). rewrite in_app_iff. cbn [In] in *.
      destruct HT as [H|[H|[[<-|H]|H]]]; tauto.
    + pose proof HQ as (Hs & Ht & _).
      assert (He : now <= cur (tid t) < two63) by (pose proof (Hcur (tid t)); lia).
      apply IH; [apply Q_add; [exact HQ|exact He]|].
      intros t' Hin. destruct (HT t' Hin) as [H|[H|[[<-|H]|H]]]; try tauto.
      right. left. apply tin_add; [exact Hs|lia|lia|exact H].
Qed.

Lemma sweep_bucket_QT U w i j0 acc w' acc' : (i < 5)%nat -> (j0 < NBn i)%nat ->
  Q U w -> Tr w acc [] -> sweep_bucket cur w i j0 acc = (w', acc') ->
  Q (fun i' j => U i' j /\ ~ (i' = i /\ j = j0)) w' /\ Tr w' acc' [].
Proof.
  intros Hi Hj (Hs & Ht & Hp) HT. unfold sweep_bucket.
  change (mkWheel (wtime w) (upd_bucket (wlevels w) i j0 (fun _ => []))) with (clear_bucket w i j0).
  change (nth j0 (nth i (wlevels w) []) []) with (bucket w i j0).
  pose proof (fun i' j t => clear_bucket_in w i j0 i' j t Hs Hi Hj) as B.
  apply sweep_timers_QT.
  - split; [|split; [exact Ht|]].
    + unfold shape, clear_bucket. cbn [wlevels]. rewrite upd_bucket_shape. exact Hs.
    + intros i' j t Hin. apply B in Hin. destruct Hin as [Hin N]. specialize (Hp i' j t Hin). tauto.
  - (* the timers of the detached bucket are pending, all others stay where they are *)
    intros t Hin. destruct (HT t Hin) as [H|[(i' & j & H)|[[]|H]]]; [left; exact H| |right; right; right; exact H].
    destruct (Nat.eq_dec i' i) as [->|Ni]; [destruct (Nat.eq_dec j j0) as [->|Nj]|].
    + right. right. left. exact H.
    + right. left. exists i, j. apply B. split; [exact H|intros [_ C]; exact (Nj C)].
    + right. left. exists i', j. apply B. split; [exact H|intros [C _]; exact (Ni C)].
Qed.

Lemma sweep_slots_QT i (Hi : (i < 5)%nat) steps : forall U start w acc w' acc',
  Q U w -> Tr w acc [] -> sweep_slots cur w i start (NB i - 1) steps acc = (w', acc') ->
  Q (fun i' j => U i' j /\ ~ (i' = i /\ visited i start steps j)) w' /\ Tr w' acc' [].
Proof.
  induction steps as [|n IH]; intros U start w acc w' acc' HQ HT; cbn [sweep_slots].
  - intros [= <- <-]. split; [|exact HT]. apply Q_settle with (2 := HQ).
    intros i' j t HU _. right. split; [exact HU|]. intros [_ C]. exact (visited_0 _ _ _ C).
  - rewrite (land_level i start Hi).
    assert (Hslot : (Z.to_nat (start mod NB i) < NBn i)%nat).
    { pose proof (Z.mod_pos_bound start (NB i) (NB_pos i Hi)). pose proof (NB_NBn i Hi). lia. }
    destruct (sweep_bucket _ _ _ _ _) as [w1 acc1] eqn:EB. intros E.
    destruct (sweep_bucket_QT U w i _ acc w1 acc1 Hi Hslot HQ HT EB) as [HQ1 HT1].
    destruct (IH _ _ _ _ _ _ HQ1 HT1 E) as [IH1 IH2]. split; [|exact IH2].
    apply Q_settle with (2 := IH1). intros i' j t [[HU H0] Hn] _. right. split; [exact HU|].
    intros [-> C]. destruct (visited_S _ _ _ _ C) as [C'|C'].
    + apply H0. split; [reflexivity|exact C'].
    + apply Hn. split; [reflexivity|exact C'].
Qed.

(* the level-i tick has moved: a timer placed for the old time is still ahead of the new one, or the
   sweep of level i visits its slot *)
Lemma unswept_placed_now i j t : (i < 5)%nat ->
  prev / PW i < now / PW i ->
  placed prev i j t ->
  placed now i j t \/
  visited i ((prev / PW i) mod NB i) (Z.to_nat (Z.min (now / PW i - prev / PW i + 1) (NB i))) j.
Proof.
  intros Hi Hlt (H1 & H2 & H3 & H4 & H5 & H6).
  pose proof (NB_pos i Hi) as Hnb.
  assert (Hpt : 0 <= prev / PW i) by (apply Z.div_pos; [lia|apply PW_pos]).
  destruct (Nat.eq_dec i 4) as [->|N4].
  - (* the one bucket of the last level is always visited *)
    right. exists 0%nat. change (NB 4) with 1 in *. split; [lia|]. rewrite Z.mod_1_r. exact (H4 eq_refl).
  - assert (L4 : (i < 4)%nat) by lia. destruct (H3 L4) as [Hj Hrev].
    assert (Hle : prev / PW i <= tkey t / PW i).
    { destruct (Nat.eq_dec i 0) as [->|N0]; [apply H5; reflexivity|specialize (H6 N0); lia]. }
    destruct (Z_lt_ge_dec (now / PW i) (tkey t / PW i)) as [L|G].
    + left. unfold placed. split; [exact H1|]. split; [exact H2|]. split; [|split; [exact H4|split]].
      * intros _. split; [exact Hj|lia].
      * intros ->. lia.
      * intros _. exact L.
    + right. destruct (slot_cover (NB i) (prev / PW i) (now / PW i) (tkey t / PW i) Hnb) as (m & Hm & Em); try lia.
      exists (Z.to_nat m). split; [lia|]. rewrite Z2Nat.id by lia. rewrite Em. exact Hj.
Qed.

(* levels below k are done; an unmoved tick of level k ends the sweep, as the ticks of the levels
   above are unmoved too *)
Lemma sweep_levels_QT n : forall k w acc w' acc', (k + n = 5)%nat ->
  Q (fun i _ => (k <= i)%nat) w -> Tr w acc [] -> sweep_levels cur w prev now (seq k n) acc = (w', acc') ->
  Q (fun _ _ => False) w' /\ Tr w' acc' [].
Proof.
  induction n as [|n IH]; intros k w acc w' acc' Hk HQ HT; cbn [seq sweep_levels]; cbv zeta.
  - intros [= <- <-]. split; [|exact HT]. apply Q_settle with (2 := HQ). intros i j t Hi (Hlt & _). lia.
  - assert (Hk5 : (k < 5)%nat) by lia.
    rewrite !(shr_level k) by exact Hk5.
    assert (Hmono : prev / PW k <= now / PW k) by (apply Z.div_le_mono; [apply PW_pos|lia]).
    destruct (now / PW k - prev / PW k =? 0) eqn:E.
    + intros [= <- <-]. split; [|exact HT]. apply Q_settle with (2 := HQ). intros i j t Hi Hpl. left.
      apply (placed_tick_eq prev now); [|exact Hpl].
      apply (tick_eq_mono k i); [split; [exact Hi|apply Hpl]|lia].
    + change (nthZ nbuckets k) with (NB k). rewrite (land_level k _ Hk5).
      destruct (sweep_slots _ _ _ _ _ _ _) as [w1 acc1] eqn:ES.
      destruct (sweep_slots_QT k Hk5 _ _ _ _ _ _ _ HQ HT ES) as [HQ1 HT1].
      apply IH; [lia| |exact HT1]. apply Q_settle with (2 := HQ1). intros i j t [Hi Hns] Hpl.
      destruct (Nat.eq_dec i k) as [->|N]; [|right; lia].
      destruct (unswept_placed_now k j t Hk5 ltac:(lia) Hpl) as [H|H]; [left; exact H|].
      exfalso. apply Hns. split; [reflexivity|exact H].
Qed.

Definition due_ext (s s' : wheel * list Z) : Prop :=
  wtime (fst s') = wtime (fst s) /\ forall id, In id (snd s') -> In id (snd s) \/ cur id < wtime (fst s).

Lemma due_refl s : due_ext s s.
Proof. split; [reflexivity|]. intros id H. left. exact H. Qed.

Lemma due_trans s1 s2 s3 : due_ext s1 s2 -> due_ext s2 s3 -> due_ext s1 s3.
Proof.
  intros [T1 D1] [T2 D2]. split; [congruence|].
  intros id H. destruct (D2 id H) as [H'|H']; [apply D1; exact H'|right; rewrite <- T1; exact H'].
Qed.

Lemma sweep_bucket_due w lvl slot acc : due_ext (w, acc) (sweep_bucket cur w lvl slot acc).
Proof.
  unfold sweep_bucket.
  set (w' := mkWheel (wtime w) (upd_bucket (wlevels w) lvl slot (fun _ => []))).
  set (ts := nth slot (nth lvl (wlevels w) []) []).
  pose proof (sweep_timers_spec cur ts w' acc) as H.
  split; [|exact (sweep_timers_expired_due cur ts w' acc)].
  destruct (sweep_timers cur w' ts acc) as [w1 acc1]. apply H.
Qed.

Lemma sweep_slots_due lvl mask steps : forall w start acc,
  due_ext (w, acc) (sweep_slots cur w lvl start mask steps acc).
Proof.
  induction steps as [|n IH]; intros w start acc; cbn [sweep_slots]; [apply due_refl|].
  pose proof (sweep_bucket_due w lvl (Z.to_nat (Z.land start mask)) acc) as HB.
  destruct (sweep_bucket cur w lvl (Z.to_nat (Z.land start mask)) acc) as [w1 acc1].
  exact (due_trans _ _ _ HB (IH w1 (start + 1) acc1)).
Qed.

Lemma sweep_levels_due lvls : forall w acc, due_ext (w, acc) (sweep_levels cur w prev now lvls acc).
Proof.
  induction lvls as [|i lvls IH]; intros w acc; cbn [sweep_levels]; cbv zeta; [apply due_refl|].
  destruct (_ =? 0); [apply due_refl|].
  destruct (sweep_slots _ _ _ _ _ _ _) as [w1 acc1] eqn:E.
  apply (due_trans _ (w1, acc1)); [rewrite <- E; apply sweep_slots_due|apply IH].
Qed.

End Sweep.

Theorem sweep_correct cur w now :
  Inv w -> wtime w <= now < two63 -> (forall id, 0 <= cur id < two63) ->
  let r := wheel_delete_expired cur w now in
  Inv (fst r) /\ wtime (fst r) = now /\
  (forall id, In id (snd r) -> cur id < now) /\
  (forall t, tin w t -> In (tid t) (snd r) \/ tin (fst r) t \/ now <= cur (tid t)).
Proof.
  intros (Hs & HT & Hp) Hn Hc. cbv zeta. unfold wheel_delete_expired.
  set (w1 := mkWheel now (wlevels w)).
  assert (HQ : Q (wtime w) now (fun i _ => (0 <= i)%nat) w1).
  { split; [exact Hs|]. split; [reflexivity|]. intros i j t Hin. right. split; [lia|]. apply Hp. exact Hin. }
  assert (HTr : Tr cur now w w1 [] []).
  { intros t (i & j & Hin). right. left. exists i, j. exact Hin. }
  destruct (sweep_levels_due cur (wtime w) now [0; 1; 2; 3; 4]%nat w1 []) as [_ D].
  destruct (sweep_levels cur w1 (wtime w) now _ []) as [w2 acc2] eqn:E.
  destruct (sweep_levels_QT cur (wtime w) now (conj HT (proj1 Hn)) Hc w 5 0 w1 [] w2 acc2 eq_refl HQ HTr E)
    as [(Hs2 & Ht2 & Hp2) HT2].
  cbn [fst snd wtime w1] in *.
  split; [|split; [exact Ht2|split]].
  - split; [exact Hs2|]. split; [lia|]. intros i j t Hin. rewrite Ht2.
    destruct (Hp2 i j t Hin) as [H|[[] _]]. exact H.
  - intros id Hin. destruct (D id Hin) as [[]|H]. exact H.
  - intros t Hin. destruct (HT2 t Hin) as [H|[H|[[]|H]]]; tauto.
Qed.

(* C13 at the level of the wheel: were the timer still linked after the sweep, it would be placed for [now],
   its key not in a tick before [now]'s *)
Theorem sweep_complete cur w now t :
  Inv w -> wtime w <= now < two63 -> (forall id, 0 <= cur id < two63) ->
  tin w t -> tkey t / P0 < now / P0 -> cur (tid t) < now ->
  In (tid t) (snd (wheel_delete_expired cur w now)).
Proof.
  intros HI Hn Hc Hin Hk Hd.
  destruct (sweep_correct cur w now HI Hn Hc) as ((_ & _ & Hp) & Ht & _ & Hl).
  destruct (Hl t Hin) as [H|[(i & j & H)|H]]; [exact H| |lia].
  apply Hp in H. rewrite Ht in H. apply placed_tick0 in H. lia.
Qed.

Inductive wop :=
| WLink (id e : Z)                     (* Delete (a no-op when not linked) + Add under deadline e *)
| WUnlink (id : Z)
| WSweep (cur : Z -> Z) (now : Z).     (* DeleteExpired at [now]; [cur] = the deadlines at that moment *)

Definition wstep (w : wheel) (o : wop) : wheel :=
  match o with
  | WLink id e => wheel_add (wheel_delete w id) id e
  | WUnlink id => wheel_delete w id
  | WSweep cur now => fst (wheel_delete_expired cur w now)
  end.

(* deadlines are non-negative int64 values; the clock is monotone *)
Definition wop_ok (w : wheel) (o : wop) : Prop :=
  match o with
  | WLink _ e => 0 <= e < two63
  | WUnlink _ => True
  | WSweep cur now => wtime w <= now < two63 /\ forall id, 0 <= cur id < two63
  end.

Fixpoint wrun_ok (w : wheel) (ops : list wop) : Prop :=
  match ops with
  | [] => True
  | o :: ops' => wop_ok w o /\ wrun_ok (wstep w o) ops'
  end.

Definition Inv2 (w : wheel) : Prop := Inv w /\ wtime w < two63.

Lemma wstep_inv w o : Inv2 w -> wop_ok w o -> Inv2 (wstep w o).
Proof.
  intros [HI HT] Hok. destruct o as [id e|id|cur now]; cbn [wstep wop_ok] in *.
  - split; [apply wheel_add_inv; [apply wheel_delete_inv; exact HI|exact Hok|exact HT]|].
    rewrite wheel_add_time. exact HT.
  - split; [apply wheel_delete_inv; exact HI|exact HT].
  - destruct Hok as [Hn Hc]. destruct (sweep_correct cur w now HI Hn Hc) as (H1 & H2 & _).
    split; [exact H1|]. rewrite H2. apply Hn.
Qed.

Theorem wheel_run_inv ops : forall w, Inv2 w -> wrun_ok w ops -> Inv2 (fold_left wstep ops w).
Proof.
  induction ops as [|o ops IH]; intros w HI Hok; cbn [fold_left]; [exact HI|].
  destruct Hok as [H1 H2]. apply IH; [apply wstep_inv; assumption|exact H2].
Qed.

Lemma inv2_wheel0 : Inv2 wheel0.
Proof. split; [exact inv_wheel0|cbn; unfold two63; lia]. Qed.

Lemma link_key w id e : Inv2 w -> 0 <= e < two63 ->
  tin (wstep w (WLink id e)) (mkTimer id (Z.max e (wtime w))).
Proof.
  intros [(Hs & HT & Hp) HT2] He. cbn [wstep].
  destruct (wheel_add_bucket (wheel_delete w id) id e) as (lvl & slot & _ & B);
    [apply wheel_delete_shape; exact Hs|exact (conj HT HT2)|exact He|].
  exists lvl, slot. apply B. right. split; [reflexivity|split; [reflexivity|]].
  f_equal. unfold clamp. cbn [wtime wheel_delete]. destruct (e <? wtime w) eqn:E; lia.
Qed.

(* C13 for every wheel reachable by any sequence of links, unlinks and sweeps with any clock jumps *)
Theorem wheel_reachable_sweep_complete ops cur now t :
  wrun_ok wheel0 ops ->
  let w := fold_left wstep ops wheel0 in
  wtime w <= now < two63 -> (forall id, 0 <= cur id < two63) ->
  tin w t -> tkey t / P0 < now / P0 -> cur (tid t) < now ->
  In (tid t) (snd (wheel_delete_expired cur w now)).
Proof.
  intros Hok w Hn Hc Hin Hk Hd.
  destruct (wheel_run_inv ops wheel0 inv2_wheel0 Hok) as [HI _].
  apply sweep_complete; assumption.
Qed.

(* and only due timers are expired; nothing else disappears *)
Theorem wheel_reachable_sweep_sound ops cur now :
  wrun_ok wheel0 ops ->
  let w := fold_left wstep ops wheel0 in
  wtime w <= now < two63 -> (forall id, 0 <= cur id < two63) ->
  (forall id, In id (snd (wheel_delete_expired cur w now)) -> cur id < now) /\
  (forall t, tin w t -> In (tid t) (snd (wheel_delete_expired cur w now)) \/
                        tin (fst (wheel_delete_expired cur w now)) t \/ now <= cur (tid t)).
Proof.
  intros Hok w Hn Hc.
  destruct (wheel_run_inv ops wheel0 inv2_wheel0 Hok) as [HI _].
  destruct (sweep_correct cur w now HI Hn Hc) as (_ & _ & H3 & H4). split; assumption.
Qed.

Lemma tin_iff_timers w t : tin w t <-> In t (wheel_timers w).
Proof.
  unfold tin, wheel_timers, bucket. split.
  - intros (i & j & H). apply in_concat. exists (nth j (nth i (wlevels w) []) []). split; [|exact H].
    apply in_concat. exists (nth i (wlevels w) []).
    destruct (nth_in_or_default j (nth i (wlevels w) []) []) as [Hj|Ej]; [|rewrite Ej in H; destruct H].
    destruct (nth_in_or_default i (wlevels w) []) as [Hi|Ei]; [|rewrite Ei in H; destruct j; destruct H].
    split; assumption.
  - intros H. apply in_concat in H. destruct H as (b & Hb & Ht). apply in_concat in Hb. destruct Hb as (l & Hl & Hb).
    destruct (In_nth _ _ [] Hl) as (i & Hi & <-). destruct (In_nth _ _ [] Hb) as (j & Hj & <-).
    exists i, j. exact Ht.
Qed.

Lemma tin_timers w t : shape w -> (tin w t <-> In t (wheel_timers w)).
Proof. intros _. apply tin_iff_timers. Qed.
