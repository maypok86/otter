(* HashMapBytes.v — byte algebra of the meta words of the hash table (C15): setByte / getByte /
   broadcast, and the SWAR marks restricted to the five slot bytes. *)
From Otter Require Import Base HashMap HashMapFacts.
From Coq Require Import ZifyBool.
Local Open Scope Z_scope.

Definition byte (w i : Z) : Z := (w / 2 ^ (8 * i)) mod 256.

Lemma byte_land_shiftr w i : 0 <= i -> byte w i = Z.land (Z.shiftr w (8 * i)) (Z.ones 8).
Proof. intros Hi. unfold byte. rewrite Z.shiftr_div_pow2 by lia. rewrite Z.land_ones by lia. reflexivity. Qed.

Lemma getByte_byte w i : 0 <= i -> getByte w i = byte w i.
Proof.
  intros Hi. unfold getByte. rewrite byte_land_shiftr by assumption.
  rewrite Z.shiftl_mul_pow2 by lia. change (2 ^ 3) with 8. rewrite (Z.mul_comm i 8). reflexivity.
Qed.

Lemma byte_range w i : 0 <= byte w i < 256.
Proof. unfold byte. apply Z.mod_pos_bound. lia. Qed.

Lemma byte_bits w i m : 0 <= i -> 0 <= m ->
  Z.testbit (byte w i) m = (m <? 8) && Z.testbit w (8 * i + m).
Proof.
  intros Hi Hm. rewrite byte_land_shiftr by assumption. rewrite Z.land_spec, Z.shiftr_spec by assumption.
  rewrite Z.testbit_ones_nonneg by lia. rewrite andb_comm. f_equal. f_equal. lia.
Qed.

Lemma bits_high_zero a n m : 0 <= a < 2 ^ n -> n <= m -> Z.testbit a m = false.
Proof.
  intros Ha Hm. destruct (Z_lt_ge_dec n 0) as [Hn|Hn].
  - rewrite Z.pow_neg_r in Ha by lia. lia.
  - rewrite <- (Z.mod_small a (2 ^ n)) by lia. apply Z.mod_pow2_bits_high. lia.
Qed.

Lemma small_bits_high x m : 0 <= x < 256 -> 8 <= m -> Z.testbit x m = false.
Proof. apply (bits_high_zero x 8 m). Qed.

Lemma lt_pow2_of_bits x n : 0 <= n -> 0 <= x -> (forall m, n <= m -> Z.testbit x m = false) -> x < 2 ^ n.
Proof.
  intros Hn Hx H.
  assert (E : x mod 2 ^ n = x).
  { apply Z.bits_inj'. intros m Hm. destruct (Z_lt_ge_dec m n) as [Hlt|Hge].
    - rewrite Z.mod_pow2_bits_low by lia. reflexivity.
    - rewrite Z.mod_pow2_bits_high by lia. symmetry. apply H. lia. }
  assert (0 < 2 ^ n) by (apply Z.pow_pos_nonneg; lia).
  pose proof (Z.mod_pos_bound x (2 ^ n) ltac:(lia)). lia.
Qed.

Lemma byte_eq a b : 0 <= a < 256 -> 0 <= b < 256 ->
  (forall m, 0 <= m < 8 -> Z.testbit a m = Z.testbit b m) -> a = b.
Proof.
  intros Ha Hb H. apply Z.bits_inj'. intros m Hm.
  destruct (Z_lt_ge_dec m 8) as [Hlt|Hge]; [apply H; lia|].
  rewrite !small_bits_high by lia. reflexivity.
Qed.

Lemma setByte_bits w b i p :
  0 <= b < 256 -> 0 <= i < 8 -> 0 <= p ->
  Z.testbit (setByte w b i) p =
  if (8 * i <=? p) && (p <? 8 * i + 8) then Z.testbit b (p - 8 * i) else (p <? 64) && Z.testbit w p.
Proof.
  intros Hb Hi Hp. unfold setByte.
  rewrite (Z.shiftl_mul_pow2 i 3) by lia. change (2 ^ 3) with 8. rewrite (Z.mul_comm i 8).
  rewrite Z.lor_spec, Z.land_spec, Z.lxor_spec, !Z.shiftl_spec by assumption.
  change 255 with (Z.ones 8). change (two64 - 1) with (Z.ones 64). rewrite !Z.testbit_ones by lia.
  replace ((0 <=? p - 8 * i) && (p - 8 * i <? 8)) with ((8 * i <=? p) && (p <? 8 * i + 8)) by lia.
  destruct ((8 * i <=? p) && (p <? 8 * i + 8)) eqn:W.
  - replace ((0 <=? p) && (p <? 64)) with true by lia. cbn [xorb]. rewrite andb_false_r. reflexivity.
  - replace (Z.testbit b (p - 8 * i)) with false.
    + replace (0 <=? p) with true by lia. rewrite andb_true_l, xorb_false_l, orb_false_r. apply andb_comm.
    + symmetry. destruct (Z_lt_ge_dec (p - 8 * i) 0); [apply Z.testbit_neg_r|apply small_bits_high]; lia.
Qed.

Lemma byte_setByte w b i j :
  0 <= b < 256 -> 0 <= i < 8 -> 0 <= j < 8 ->
  byte (setByte w b i) j = if j =? i then b else byte w j.
Proof.
  intros Hb Hi Hj.
  apply byte_eq; [apply byte_range|destruct (j =? i); [assumption|apply byte_range]|].
  intros m Hm. rewrite byte_bits, setByte_bits by lia.
  destruct (Z.eqb_spec j i) as [->|Hne].
  - replace ((8 * i <=? 8 * i + m) && (8 * i + m <? 8 * i + 8)) with true by lia.
    replace (m <? 8) with true by lia. replace (8 * i + m - 8 * i) with m by lia. reflexivity.
  - replace ((8 * i <=? 8 * j + m) && (8 * j + m <? 8 * i + 8)) with false by lia.
    rewrite byte_bits by lia. replace (8 * j + m <? 64) with true by lia. reflexivity.
Qed.

Lemma setByte_range w b i : 0 <= b < 256 -> 0 <= i < 8 -> 0 <= setByte w b i < two64.
Proof.
  intros Hb Hi.
  assert (H0 : 0 <= setByte w b i).
  { unfold setByte. apply Z.lor_nonneg. split; [apply Z.land_nonneg; right|apply Z.shiftl_nonneg; lia].
    apply Z.lxor_nonneg. split; intros _; [unfold two64; lia|apply Z.shiftl_nonneg; lia]. }
  split; [exact H0|]. apply (lt_pow2_of_bits _ 64); [lia|exact H0|].
  intros m Hm. rewrite setByte_bits by lia.
  replace ((8 * i <=? m) && (m <? 8 * i + 8)) with false by lia. replace (m <? 64) with false by lia. reflexivity.
Qed.

(* every byte of broadcast b is b: K01 * b = b * (K01 mod P) + (b * (K01 / P)) * P with P = 2^(8j),
   the first summand stays below P and K01 / P ends in the byte 1 *)
Lemma byte_broadcast b j : 0 <= b < 256 -> 0 <= j < 8 -> byte (broadcast b) j = b.
Proof.
  intros Hb Hj. unfold broadcast. change 0x101010101010101 with K01.
  rewrite wrapu_id by (unfold in_u64, K01, two64; lia). unfold byte.
  destruct (K01_split j Hj) as [HL HH].
  assert (HP : 0 < 2 ^ (8 * j)) by (apply Z.pow_pos_nonneg; lia).
  rewrite (Z.div_mod K01 (2 ^ (8 * j))) at 1 by lia.
  set (P := 2 ^ (8 * j)) in *. set (L := K01 mod P) in *. set (H := K01 / P) in *.
  replace ((P * H + L) * b) with (b * L + b * H * P) by ring.
  rewrite Z.div_add, Z.div_small by nia.
  rewrite Z.add_0_l, Z.mul_mod, HH, Z.mul_1_r, Z.mod_mod, Z.mod_small by lia. reflexivity.
Qed.

Lemma broadcast_range b : 0 <= broadcast b < two64.
Proof. unfold broadcast. apply wrapu_range. Qed.

Lemma byte_defaultMeta j : 0 <= j < 8 -> byte defaultMeta j = 128.
Proof.
  intros Hj.
  assert (H : forallb (fun j => byte defaultMeta j =? 128) (map Z.of_nat (seq 0 8)) = true) by (vm_compute; reflexivity).
  pose proof (range_forall _ _ H j ltac:(lia)) as H1. cbv beta in H1. lia.
Qed.

Lemma defaultMeta_range : 0 <= defaultMeta < two64.
Proof. unfold defaultMeta, two64. lia. Qed.

Lemma h2_range x : 0 <= h2 x < 128.
Proof.
  unfold h2. change 127 with (Z.ones 7). rewrite Z.land_ones by lia. change (2 ^ 7) with 128.
  apply Z.mod_pos_bound. lia.
Qed.

Lemma byte_xor_match meta h i :
  0 <= h < 256 -> 0 <= i < 8 -> byte meta i = h -> byte (Z.lxor meta (broadcast h)) i = 0.
Proof.
  intros Hh Hi E. unfold byte. rewrite lxor_byte by lia. fold (byte meta i). fold (byte (broadcast h) i).
  rewrite byte_broadcast by assumption. rewrite E. apply Z.lxor_nilpotent.
Qed.

Definition M8 : Z := 0x8080808080808080.
Definition M5 : Z := 0x8080808080.

Lemma land_pow2 a k : 0 <= k -> Z.land a (2 ^ k) = if Z.testbit a k then 2 ^ k else 0.
Proof.
  intros Hk. apply Z.bits_inj'. intros n Hn. rewrite Z.land_spec. rewrite Z.pow2_bits_eqb by assumption.
  destruct (Z.eqb_spec k n) as [->|Hne].
  - destruct (Z.testbit a n); [rewrite Z.pow2_bits_true by lia; reflexivity|rewrite Z.testbit_0_l; reflexivity].
  - rewrite andb_false_r. destruct (Z.testbit a k); [rewrite Z.pow2_bits_false by lia; reflexivity|rewrite Z.testbit_0_l; reflexivity].
Qed.

(* a word with no bit set outside the top bits of the five slot bytes *)
Definition mk5 (s0 s1 s2 s3 s4 : bool) : Z :=
  Z.lor (if s0 then 2 ^ 7 else 0) (Z.lor (if s1 then 2 ^ 15 else 0) (Z.lor (if s2 then 2 ^ 23 else 0)
    (Z.lor (if s3 then 2 ^ 31 else 0) (if s4 then 2 ^ 39 else 0)))).

Lemma land_M5 a :
  Z.land a M5 = mk5 (Z.testbit a 7) (Z.testbit a 15) (Z.testbit a 23) (Z.testbit a 31) (Z.testbit a 39).
Proof.
  change M5 with (Z.lor (2 ^ 7) (Z.lor (2 ^ 15) (Z.lor (2 ^ 23) (Z.lor (2 ^ 31) (2 ^ 39))))).
  rewrite !Z.land_lor_distr_r. rewrite !land_pow2 by lia. reflexivity.
Qed.

Lemma markedw_mk5 X :
  Z.land (markZeroBytes X) metaMask =
  mk5 (Z.testbit (markZeroBytes X) 7) (Z.testbit (markZeroBytes X) 15) (Z.testbit (markZeroBytes X) 23)
      (Z.testbit (markZeroBytes X) 31) (Z.testbit (markZeroBytes X) 39).
Proof.
  assert (E : markZeroBytes X = Z.land (markZeroBytes X) M8).
  { unfold markZeroBytes. change 0x8080808080808080 with M8. rewrite <- (Z.land_assoc _ M8 M8). rewrite Z.land_diag. reflexivity. }
  rewrite E at 1. rewrite <- Z.land_assoc. change (Z.land M8 metaMask) with M5. apply land_M5.
Qed.

Lemma emptyw_mk5 meta :
  Z.land meta (Z.land defaultMeta metaMask) =
  mk5 (Z.testbit meta 7) (Z.testbit meta 15) (Z.testbit meta 23) (Z.testbit meta 31) (Z.testbit meta 39).
Proof. change (Z.land defaultMeta metaMask) with M5. apply land_M5. Qed.

Definition sel (s : bool) (i : Z) : list Z := if s then [i] else [].

Lemma marked_mk5 s0 s1 s2 s3 s4 :
  marked_indices 8 (mk5 s0 s1 s2 s3 s4) = sel s0 0 ++ sel s1 1 ++ sel s2 2 ++ sel s3 3 ++ sel s4 4.
Proof. destruct s0, s1, s2, s3, s4; vm_compute; reflexivity. Qed.

Lemma in_sel s k i : In i (sel s k) <-> s = true /\ i = k.
Proof. destruct s; cbn; intuition congruence. Qed.

Lemma in_marked_mk5 a i :
  In i (marked_indices 8 (mk5 (Z.testbit a 7) (Z.testbit a 15) (Z.testbit a 23) (Z.testbit a 31) (Z.testbit a 39)))
  <-> 0 <= i < 5 /\ Z.testbit a (8 * i + 7) = true.
Proof.
  rewrite marked_mk5, !in_app_iff, !in_sel. split.
  - intros [[H ->]|[[H ->]|[[H ->]|[[H ->]|[H ->]]]]]; (split; [lia|exact H]).
  - intros [Hi H]. assert (C : i = 0 \/ i = 1 \/ i = 2 \/ i = 3 \/ i = 4) by lia.
    destruct C as [->|[->|[->|[->| ->]]]]; tauto.
Qed.

Lemma first_marked_in w : (w =? 0) = false -> In (firstMarkedByteIndex w) (marked_indices 8 w).
Proof. intros H. cbn [marked_indices]. rewrite H. left. reflexivity. Qed.

(* bit 7 of a slot byte: set for the empty marker, clear for a hash byte *)
Lemma top_bit_byte meta i : 0 <= i -> Z.testbit meta (8 * i + 7) = Z.testbit (byte meta i) 7.
Proof. intros Hi. rewrite byte_bits by lia. reflexivity. Qed.

Lemma top_bit_small h : 0 <= h < 128 -> Z.testbit h 7 = false.
Proof. intros Hh. apply (bits_high_zero h 7 7); [change (2 ^ 7) with 128; lia|lia]. Qed.
