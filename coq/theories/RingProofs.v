(* RingProofs.v — invariant of the lossy ring protocol for every schedule and any number of producers. *)
From Otter Require Import Base Ring.
From Coq Require Import ZifyBool.
Local Open Scope Z_scope.

Definition nthR (l : list Z) (i : Z) : Z := nth (Z.to_nat i) l 0.

Definition in_flight (r : ring) (t n : Z) : Prop := exists j, nth_error (rprods r) j = Some (PStore n t).

Record inv (r : ring) : Prop := mkInv {
  i_bounds : 0 <= rhead r <= cursor r /\ cursor r <= rtail r <= rhead r + 16;
  i_len : Z.of_nat (length (recorded r)) = rtail r;
  i_deliv : delivered r = firstn (Z.to_nat (cursor r)) (recorded r);
  i_live : forall i, cursor r <= i < rtail r ->
           rslots r (i mod 16) = Some (nthR (recorded r) i) \/
           (rslots r (i mod 16) = None /\ in_flight r i (nthR (recorded r) i));
  i_free : forall i, rtail r <= i < cursor r + 16 -> rslots r (i mod 16) = None;
  i_prods : forall j p, nth_error (rprods r) j = Some p ->
            match p with
            | PTail _ h => h <= rhead r
            | PCas _ h t => h <= rhead r /\ t <= rtail r /\ t - h < 16
            | PStore n t => cursor r <= t < rtail r /\ rslots r (t mod 16) = None /\ nthR (recorded r) t = n
            | _ => True
            end;
  i_distinct : forall j1 j2 n1 n2 t,
      nth_error (rprods r) j1 = Some (PStore n1 t) -> nth_error (rprods r) j2 = Some (PStore n2 t) -> j1 = j2;
  i_cons : match rcons r with
           | CIdle => True
           | CTail h => h = rhead r
           | CLoad h t => rhead r <= h <= t /\ t <= rtail r
           | CClear h t v => rhead r <= h < t /\ t <= rtail r /\ rslots r (h mod 16) = Some v /\ v = nthR (recorded r) h
           | CHead h => rhead r <= h <= rtail r
           end
}.

Definition not_store (p : pstate) : Prop := forall n t, p <> PStore n t.

(* quiescence: no producer is between its CAS and its store *)
Definition quiescent (r : ring) : Prop := forall j p, nth_error (rprods r) j = Some p -> not_store p.

Fixpoint iter_cons (n : nat) (r : ring) : ring :=
  match n with O => r | S n' => iter_cons n' (cons_step r) end.

Lemma nthR_app_l l x i : 0 <= i < Z.of_nat (length l) -> nthR (l ++ [x]) i = nthR l i.
Proof. intros H. unfold nthR. apply app_nth1. lia. Qed.

Lemma nthR_app_last l x : nthR (l ++ [x]) (Z.of_nat (length l)) = x.
Proof. unfold nthR. rewrite Nat2Z.id, app_nth2, Nat.sub_diag by lia. reflexivity. Qed.

Lemma slot_same f t v : fupd f (t mod RSIZE) v (t mod 16) = v.
Proof. unfold fupd, RSIZE. rewrite Z.eqb_refl. reflexivity. Qed.

Lemma slot_inj i t : -16 < i - t < 16 -> i mod 16 = t mod 16 -> i = t.
Proof. intros Hd E. Z.div_mod_to_equations. lia. Qed.

Lemma slot_other f t v i : i <> t -> -16 < i - t < 16 -> fupd f (t mod RSIZE) v (i mod 16) = f (i mod 16).
Proof.
  intros Hne Hd. unfold fupd, RSIZE. destruct (Z.eqb_spec (i mod 16) (t mod 16)) as [E|_]; [|reflexivity].
  destruct (Hne (slot_inj i t Hd E)).
Qed.

(* the clauses [i_prods] and [i_cons] of the invariant, as hypotheses for the lemmas on the kinds of move *)
Definition prod_ok (r : ring) (p : pstate) : Prop :=
  match p with
  | PTail _ h => h <= rhead r
  | PCas _ h t => h <= rhead r /\ t <= rtail r /\ t - h < 16
  | PStore n t => cursor r <= t < rtail r /\ rslots r (t mod 16) = None /\ nthR (recorded r) t = n
  | _ => True
  end.

Definition cons_ok (r : ring) (c : cstate) : Prop :=
  match c with
  | CIdle => True
  | CTail h => h = rhead r
  | CLoad h t => rhead r <= h <= t /\ t <= rtail r
  | CClear h t v => rhead r <= h < t /\ t <= rtail r /\ rslots r (h mod 16) = Some v /\ v = nthR (recorded r) h
  | CHead h => rhead r <= h <= rtail r
  end.

Lemma in_flight_other r r' j p t n :
  rprods r' = upd j p (rprods r) -> nth_error (rprods r) j <> Some (PStore n t) ->
  in_flight r t n -> in_flight r' t n.
Proof.
  intros E Hj (j' & Hj'). exists j'. rewrite E, nth_error_upd_other; [exact Hj'|]. intros ->. exact (Hj Hj').
Qed.

Lemma in_flight_upd r j p t n :
  (forall n' t', nth_error (rprods r) j <> Some (PStore n' t') \/ True) ->
  (forall n' t', nth_error (rprods r) j = Some (PStore n' t') -> False) ->
  in_flight r t n -> exists j', nth_error (upd j p (rprods r)) j' = Some (PStore n t).
Proof.
  intros _ Hnot. exact (in_flight_other r (set_prod r j p) j p t n eq_refl (fun H => Hnot _ _ H)).
Qed.

Lemma distinct_upd (l : list pstate) j x :
  (forall j1 j2 n1 n2 t, nth_error l j1 = Some (PStore n1 t) -> nth_error l j2 = Some (PStore n2 t) -> j1 = j2) ->
  (forall n t j' n', x = PStore n t -> j' <> j -> nth_error l j' <> Some (PStore n' t)) ->
  forall j1 j2 n1 n2 t,
    nth_error (upd j x l) j1 = Some (PStore n1 t) -> nth_error (upd j x l) j2 = Some (PStore n2 t) -> j1 = j2.
Proof.
  intros Ds Hx j1 j2 n1 n2 t H1 H2. apply nth_error_upd_inv in H1, H2.
  destruct H1 as [[-> H1]|[N1 H1]], H2 as [[-> H2]|[N2 H2]].
  - reflexivity.
  - destruct (Hx _ _ _ _ (eq_sym H1) N2 H2).
  - destruct (Hx _ _ _ _ (eq_sym H2) N1 H1).
  - exact (Ds _ _ _ _ _ H1 H2).
Qed.

Lemma inv_init first nprod : inv (ring_init first nprod).
Proof.
  unfold ring_init. constructor; cbn [rhead rtail rslots recorded delivered rcons rprods cursor].
  - lia.
  - reflexivity.
  - reflexivity.
  - intros i Hi. assert (i = 0) by lia. subst i. left. reflexivity.
  - intros i Hi. unfold fupd. rewrite Z.mod_small by lia. replace (i =? 0) with false by lia. reflexivity.
  - intros j p H. apply nth_error_In, repeat_spec in H. subst p. exact I.
  - intros j1 j2 n1 n2 t H. apply nth_error_In, repeat_spec in H. discriminate.
  - exact I.
Qed.

Lemma set_prod_inv r j p p' :
  inv r -> nth_error (rprods r) j = Some p -> not_store p -> not_store p' -> prod_ok r p' ->
  inv (set_prod r j p').
Proof.
  intros [B L D Lv F P Ds C] Hj Hp Hp' Hok.
  constructor; unfold set_prod; cbn [rhead rtail rslots recorded delivered rcons rprods cursor]; try assumption.
  - intros i Hi. destruct (Lv i Hi) as [H|[H Hf]]; [left; exact H|right; split; [exact H|]].
    eapply in_flight_other; [reflexivity| |exact Hf]. rewrite Hj. intros [= ->]. exact (Hp _ _ eq_refl).
  - exact (upd_all (prod_ok r) _ _ _ P Hok).
  - apply distinct_upd; [exact Ds|]. intros n t j' n' E. destruct (Hp' _ _ E).
Qed.

(* a producer wins the tail CAS: it owns the index that was the tail *)
Lemma inv_cas r j n h :
  inv r -> nth_error (rprods r) j = Some (PCas n h (rtail r)) ->
  inv (mkRing (rhead r) (rtail r + 1) (rslots r) (recorded r ++ [n]) (delivered r) (rcons r)
              (upd j (PStore n (rtail r)) (rprods r))).
Proof.
  intros [B L D Lv F P Ds C] Hj. destruct (P j _ Hj) as (Hh & _ & Hd).
  assert (Hfree : rslots r (rtail r mod 16) = None) by (apply F; lia).
  assert (Hlen : (j < length (rprods r))%nat) by (apply nth_error_Some; congruence).
  set (r' := mkRing _ _ _ _ _ _ _). assert (Hc : cursor r' = cursor r) by reflexivity.
  constructor; rewrite ?Hc; unfold r'; cbn [rhead rtail rslots recorded delivered rcons rprods].
  - lia.
  - rewrite app_length. cbn [length]. lia.
  - rewrite firstn_app. replace (_ - _)%nat with 0%nat by lia. cbn [firstn]. rewrite app_nil_r. exact D.
  - intros i Hi. destruct (Z.eq_dec i (rtail r)) as [->|Hne].
    + right. split; [exact Hfree|]. exists j. cbn [rprods]. rewrite nth_error_upd_same by exact Hlen.
      rewrite <- L, nthR_app_last. reflexivity.
    + rewrite nthR_app_l by lia. destruct (Lv i ltac:(lia)) as [H|[H Hf]]; [left; exact H|right; split; [exact H|]].
      eapply in_flight_other; [reflexivity| |exact Hf]. rewrite Hj. discriminate.
  - intros i Hi. apply F. lia.
  - intros j' q Hq. apply nth_error_upd_inv in Hq. destruct Hq as [[_ ->]|[_ Hq]].
    + split; [lia|]. split; [exact Hfree|]. rewrite <- L. apply nthR_app_last.
    + specialize (P j' q Hq). destruct q as [| | | |n' t'|]; try exact P; try lia.
      destruct P as (P1 & P2 & P3). rewrite nthR_app_l by lia. split; [lia|]. split; assumption.
  - apply distinct_upd; [exact Ds|]. intros n0 t0 j' n' [= _ <-] _ Hq. specialize (P j' _ Hq). cbn in P. lia.
  - destruct (rcons r); try exact C; try lia.
    destruct C as (C1 & C2 & C3 & C4). rewrite nthR_app_l by (cbn [cursor] in B; lia). repeat split; assumption || lia.
Qed.

(* the owner of index t publishes its element *)
Lemma inv_store r j n t :
  inv r -> nth_error (rprods r) j = Some (PStore n t) ->
  inv (mkRing (rhead r) (rtail r) (fupd (rslots r) (t mod RSIZE) (Some n)) (recorded r) (delivered r) (rcons r)
              (upd j (PDone 0) (rprods r))).
Proof.
  intros [B L D Lv F P Ds C] Hj. destruct (P j _ Hj) as (Hr & Hs & Hv).
  set (r' := mkRing _ _ _ _ _ _ _). assert (Hc : cursor r' = cursor r) by reflexivity.
  constructor; rewrite ?Hc; unfold r'; cbn [rhead rtail rslots recorded delivered rcons rprods]; try assumption.
  - intros i Hi. destruct (Z.eq_dec i t) as [->|Hne].
    + left. rewrite slot_same, Hv. reflexivity.
    + rewrite slot_other by lia. destruct (Lv i Hi) as [H|[H Hf]]; [left; exact H|right; split; [exact H|]].
      eapply in_flight_other; [reflexivity| |exact Hf]. rewrite Hj. congruence.
  - intros i Hi. rewrite slot_other by lia. apply F. exact Hi.
  - intros j' q Hq. apply nth_error_upd_inv in Hq. destruct Hq as [[_ ->]|[Hne Hq]]; [exact I|].
    pose proof (P j' q Hq) as Pq. destruct q as [| | | |n' t'|]; try exact Pq. destruct Pq as (P1 & P2 & P3).
    assert (t' <> t) by (intros ->; exact (Hne (Ds _ _ _ _ _ Hq Hj))).
    rewrite slot_other by lia. repeat split; assumption || lia.
  - apply distinct_upd; [exact Ds|discriminate].
  - destruct (rcons r); try exact C. destruct C as (C1 & C2 & C3 & C4). cbn [cursor] in *.
    assert (h <> t) by congruence. rewrite slot_other by lia. repeat split; assumption || lia.
Qed.

Lemma set_cons_inv r c' : inv r -> cursor (set_cons r c') = cursor r -> cons_ok r c' -> inv (set_cons r c').
Proof.
  intros [B L D Lv F P Ds C] Hc Hok.
  constructor; try rewrite Hc; unfold set_cons in *; cbn [rhead rtail rslots recorded delivered rcons rprods] in *; assumption.
Qed.

(* the consumer clears the slot at its cursor, delivers what it held and advances *)
Lemma inv_clear r h t v :
  inv r -> rcons r = CClear h t v ->
  inv (mkRing (rhead r) (rtail r) (fupd (rslots r) (h mod RSIZE) None) (recorded r) (delivered r ++ [v])
              (CLoad (h + 1) t) (rprods r)).
Proof.
  intros [B L D Lv F P Ds C] Ec. rewrite Ec in C. destruct C as (C1 & C2 & C3 & C4).
  assert (Hcur : cursor r = h) by (unfold cursor; rewrite Ec; reflexivity). rewrite Hcur in *.
  constructor; cbn [rhead rtail rslots recorded delivered rcons rprods cursor]; try assumption.
  - lia.
  - rewrite D. replace (Z.to_nat (h + 1)) with (S (Z.to_nat h)) by lia.
    rewrite (firstn_S_nth 0) by lia. rewrite C4. reflexivity.
  - intros i Hi. rewrite slot_other by lia. exact (Lv i ltac:(lia)).
  - intros i Hi. destruct (Z.eq_dec i (h + 16)) as [->|Hne].
    + rewrite (Z_mod_plus_full h 1 16 : (h + 16) mod 16 = h mod 16). apply slot_same.
    + rewrite slot_other by lia. apply F. lia.
  - intros j p Hp. pose proof (P j p Hp) as Pp. destruct p as [| | | |n' t'|]; try exact Pp.
    destruct Pp as (P1 & P2 & P3). assert (t' <> h) by congruence.
    rewrite slot_other by lia. repeat split; assumption || lia.
  - lia.
Qed.

(* the consumer publishes the new head *)
Lemma inv_head r h :
  inv r -> rcons r = CHead h ->
  inv (mkRing h (rtail r) (rslots r) (recorded r) (delivered r) CIdle (rprods r)).
Proof.
  intros [B L D Lv F P Ds C] Ec. rewrite Ec in C.
  assert (Hcur : cursor r = h) by (unfold cursor; rewrite Ec; reflexivity). rewrite Hcur in *.
  constructor; cbn [rhead rtail rslots recorded delivered rcons rprods cursor]; try assumption.
  - lia.
  - intros j p Hp. pose proof (P j p Hp) as Pp. destruct p; try exact Pp; cbn in *; lia.
  - exact I.
Qed.

Lemma prod_step_inv r j payload : inv r -> (j < length (rprods r))%nat -> inv (prod_step r j payload).
Proof.
  intros Hi Hj. pose proof (nth_error_nth' (rprods r) (PDone 0) Hj) as Hn. unfold prod_step.
  pose proof (i_prods r Hi j _ Hn) as Pj.
  destruct (nth j (rprods r) (PDone 0)) as [|n|n h|n h t|n t|st].
  - apply (set_prod_inv r j _ _ Hi Hn); [discriminate..|exact I].
  - apply (set_prod_inv r j _ _ Hi Hn); [discriminate..|]. cbn. lia.
  - destruct (rtail r - h >=? RSIZE) eqn:Ef; apply (set_prod_inv r j _ _ Hi Hn); try discriminate; [exact I|].
    unfold RSIZE in Ef. cbn in *. lia.
  - destruct (Z.eqb_spec (rtail r) t) as [<-|_]; [exact (inv_cas r j n h Hi Hn)|].
    apply (set_prod_inv r j _ _ Hi Hn); [discriminate..|exact I].
  - exact (inv_store r j n t Hi Hn).
  - apply (set_prod_inv r j _ _ Hi Hn); [discriminate..|exact I].
Qed.

Lemma cons_step_inv r : inv r -> inv (cons_step r).
Proof.
  intros Hi. pose proof (i_cons r Hi) as C. pose proof (i_bounds r Hi) as B. pose proof (i_live r Hi) as Lv.
  destruct r as [hd tl sl rec del c ps]. unfold cons_step. cbn [rcons rhead rtail rslots recorded] in *.
  destruct c as [|h|h t|h t v|h]; cbn [cursor rcons rhead] in *.
  - apply set_cons_inv; [exact Hi|reflexivity|reflexivity].
  - destruct (tl - h =? 0); apply set_cons_inv; try exact Hi; try reflexivity; cbn; lia.
  - destruct (h =? t) eqn:Eht; [apply set_cons_inv; [exact Hi|reflexivity|cbn; lia]|].
    destruct (sl (h mod RSIZE)) as [v|] eqn:Es; (apply set_cons_inv; [exact Hi|reflexivity|cbn [cons_ok rhead rtail rslots recorded]]); [|lia].
    repeat split; try lia; [exact Es|]. destruct (Lv h ltac:(lia)) as [H|[H _]]; unfold RSIZE in Es; congruence.
  - exact (inv_clear _ h t v Hi eq_refl).
  - exact (inv_head _ h Hi eq_refl).
Qed.

Lemma ring_step_inv r ev : inv r -> inv (ring_step r ev).
Proof.
  intros Hi. unfold ring_step. destruct (fst ev) as [|i].
  - apply cons_step_inv. assumption.
  - destruct (Nat.ltb_spec i (length (rprods r))); [apply prod_step_inv|]; assumption.
Qed.

Theorem ring_exec_inv sched : forall r, inv r -> inv (ring_exec r sched).
Proof.
  induction sched as [|ev sched IH]; intros r Hi; [assumption|]. apply IH, ring_step_inv, Hi.
Qed.

(* delivered is a prefix of recorded: nothing unrecorded, nothing twice, ring order *)
Lemma inv_delivered_prefix r : inv r -> exists rest, recorded r = delivered r ++ rest.
Proof.
  intros Hi. exists (skipn (Z.to_nat (cursor r)) (recorded r)). rewrite (i_deliv r Hi). symmetry. apply firstn_skipn.
Qed.

Lemma inv_capacity r : inv r -> 0 <= rtail r - rhead r <= 16.
Proof. intros Hi. pose proof (i_bounds r Hi). lia. Qed.

Lemma idle_drained r : inv r -> rcons r = CIdle -> rhead r = rtail r -> delivered r = recorded r.
Proof.
  intros Hi Ec E. rewrite (i_deliv r Hi). unfold cursor. rewrite Ec, E, <- (i_len r Hi), Nat2Z.id. apply firstn_all.
Qed.

Lemma cons_step_prods r : rprods (cons_step r) = rprods r.
Proof. unfold cons_step. destruct (rcons r) as [|h|h t|h t v|h]; cbn; try reflexivity.
  - destruct (_ =? 0); reflexivity.
  - destruct (h =? t); [reflexivity|]. destruct (rslots r (h mod RSIZE)); reflexivity.
Qed.

Lemma cons_step_recorded r : recorded (cons_step r) = recorded r /\ rtail (cons_step r) = rtail r.
Proof. unfold cons_step. destruct (rcons r) as [|h|h t|h t v|h]; cbn; auto.
  - destruct (_ =? 0); auto.
  - destruct (h =? t); [auto|]. destruct (rslots r (h mod RSIZE)); auto.
Qed.

Lemma iter_cons_frame n : forall r, inv r ->
  inv (iter_cons n r) /\ rprods (iter_cons n r) = rprods r /\
  recorded (iter_cons n r) = recorded r /\ rtail (iter_cons n r) = rtail r.
Proof.
  induction n as [|n IH]; intros r Hi; cbn [iter_cons]; [auto|].
  destruct (IH _ (cons_step_inv r Hi)) as (H1 & H2 & H3 & H4), (cons_step_recorded r) as [E1 E2].
  rewrite H2, H3, H4, cons_step_prods, E1, E2. auto.
Qed.

Definition drains (r : ring) : Prop := exists n, rcons (iter_cons n r) = CIdle /\ rhead (iter_cons n r) = rtail r.

Lemma drains_step r : drains (cons_step r) -> drains r.
Proof. intros (n & H1 & H2). exists (S n). rewrite <- (proj2 (cons_step_recorded r)). exact (conj H1 H2). Qed.

Lemma quiescent_step r : quiescent r -> quiescent (cons_step r).
Proof. unfold quiescent. rewrite cons_step_prods. auto. Qed.

(* from the loading state, with every slot up to the tail published: two steps (load, clear) per
   element, two more to store the head *)
Lemma drain_from_load k : forall r h,
  inv r -> quiescent r -> rcons r = CLoad h (rtail r) -> Z.to_nat (rtail r - h) = k -> drains r.
Proof.
  induction k as [|k IH]; intros r h Hi Q Ec Ek; pose proof (i_cons r Hi) as C; rewrite Ec in C.
  - assert (h = rtail r) by lia. subst h. exists 2%nat. cbn [iter_cons].
    replace (cons_step r) with (set_cons r (CHead (rtail r))) by (unfold cons_step; rewrite Ec, Z.eqb_refl; reflexivity).
    split; reflexivity.
  - destruct (i_live r Hi h) as [Hs|[_ (j & Hj)]];
      [unfold cursor; rewrite Ec; lia| |destruct (Q j _ Hj _ _ eq_refl)].
    assert (E : cons_step r = set_cons r (CClear h (rtail r) (nthR (recorded r) h))).
    { unfold cons_step. rewrite Ec. replace (h =? rtail r) with false by lia. unfold RSIZE. rewrite Hs. reflexivity. }
    do 2 apply drains_step. apply (IH _ (h + 1)).
    + do 2 apply cons_step_inv. exact Hi.
    + do 2 apply quiescent_step. exact Q.
    + rewrite E. reflexivity.
    + rewrite E. cbn [cons_step set_cons rcons rtail]. lia.
Qed.

(* with no producer in flight, one drainTo (started from idle) delivers everything recorded *)
Theorem quiescent_drain r :
  inv r -> quiescent r -> rcons r = CIdle ->
  exists n, let r' := iter_cons n r in
            rcons r' = CIdle /\ delivered r' = recorded r /\ rhead r' = rtail r.
Proof.
  intros Hi Q Ec.
  assert (Hd : drains r).
  { assert (E : cons_step r = set_cons r (CTail (rhead r))) by (unfold cons_step; rewrite Ec; reflexivity).
    destruct (rtail r - rhead r =? 0) eqn:E0.
    - exists 2%nat. cbn [iter_cons]. rewrite E. unfold cons_step. cbn [set_cons rcons rhead rtail]. rewrite E0.
      split; [reflexivity|cbn; lia].
    - do 2 apply drains_step. eapply (drain_from_load _ _ (rhead r)).
      + do 2 apply cons_step_inv. exact Hi.
      + do 2 apply quiescent_step. exact Q.
      + rewrite E. unfold cons_step. cbn [set_cons rcons rhead rtail]. rewrite E0. reflexivity.
      + reflexivity. }
  destruct Hd as (n & H1 & H2). exists n. cbv zeta.
  destruct (iter_cons_frame n r Hi) as (I' & _ & Hrec & Htl).
  split; [exact H1|]. split; [|exact H2]. rewrite <- Hrec. apply idle_drained; [exact I'|exact H1|].
  rewrite H2, Htl. reflexivity.
Qed.
