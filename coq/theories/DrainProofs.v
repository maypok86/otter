(* DrainProofs.v — soundness of the exhaustive exploration: a set that contains the initial
   configuration and is closed under every thread's step contains every configuration reachable
   under every schedule. *)
From stdpp Require Import gmap.
From Coq Require Import List.
Import ListNotations.
From Otter Require Import Drain.

Inductive reachable (s0 : dstate) : dstate -> Prop :=
| reach_refl : reachable s0 s0
| reach_step s i s' : reachable s0 s -> dstep s i = Some s' -> reachable s0 s'.

(* executing a schedule: a disabled or non-existent thread's turn is skipped *)
Fixpoint run_sched (s : dstate) (sched : list nat) : dstate :=
  match sched with
  | [] => s
  | i :: rest => match dstep s i with Some s' => run_sched s' rest | None => run_sched s rest end
  end.

Lemma run_sched_reachable s0 sched : forall s, reachable s0 s -> reachable s0 (run_sched s sched).
Proof.
  induction sched as [|i rest IH]; intros s H; simpl; [assumption|].
  destruct (dstep s i) as [s'|] eqn:E; apply IH; [eapply reach_step; eassumption|assumption].
Qed.

Lemma succs_complete s i s' : dstep s i = Some s' -> In s' (succs s).
Proof.
  intros H. unfold succs. apply elem_of_list_In. apply elem_of_list_omap.
  exists i. split; [|assumption].
  apply elem_of_list_In. apply in_seq.
  assert (i < length (ths_of s)).
  { unfold dstep in H. destruct (nth_error (ths_of s) i) eqn:E; [|discriminate].
    apply nth_error_Some. congruence. }
  lia.
Qed.

Lemma closed_spec V : closed V = true -> forall s s', s ∈ V -> In s' (succs s) -> s' ∈ V.
Proof.
  unfold closed. intros H s s' Hs Hs'.
  rewrite forallb_forall in H. specialize (H s).
  assert (In s (elements V)) by (apply elem_of_list_In; apply elem_of_elements; assumption).
  specialize (H H0). rewrite forallb_forall in H. specialize (H s' Hs').
  apply bool_decide_eq_true in H. assumption.
Qed.

Theorem closed_contains_reachable V s0 :
  s0 ∈ V -> closed V = true -> forall s, reachable s0 s -> s ∈ V.
Proof.
  intros H0 Hc s R. induction R as [|s i s' R IH Hs]; [assumption|].
  eapply closed_spec; [eassumption|eassumption|]. eapply succs_complete. eassumption.
Qed.

Theorem terminals_drained V s0 :
  s0 ∈ V -> closed V = true -> all_terminals_drained V = true ->
  forall s, reachable s0 s -> terminal s = true -> drained s = true.
Proof.
  intros H0 Hc Hd s R T.
  pose proof (closed_contains_reachable V s0 H0 Hc s R) as Hs.
  unfold all_terminals_drained in Hd. rewrite forallb_forall in Hd.
  assert (In s (elements V)) by (apply elem_of_list_In; apply elem_of_elements; assumption).
  specialize (Hd s H). rewrite T in Hd. simpl in Hd. assumption.
Qed.

Lemma explore_grows fuel : forall fr seen V, explore fuel fr seen = Some V -> seen ⊆ V.
Proof.
  induction fuel as [|f IH]; intros fr seen V H; cbn [explore] in H; [discriminate|].
  destruct fr as [|x fr']; [injection H as <-; reflexivity|].
  destruct (fold_left _ _ _) as [fr2 sn2] eqn:E.
  transitivity sn2; [|exact (IH _ _ _ H)]. clear H. revert E. generalize (@nil dstate). generalize (flat_map succs (x :: fr')).
  intros l. revert seen. induction l as [|y l IHl]; intros sn0 fr0 Hf; cbn [fold_left] in Hf; [injection Hf as _ <-; reflexivity|].
  destruct (bool_decide (y ∈ sn0)); [exact (IHl _ _ Hf)|].
  transitivity ({[y]} ∪ sn0); [apply union_subseteq_r|exact (IHl _ _ Hf)].
Qed.
