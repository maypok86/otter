(* An inductive invariant of the drain-status model (Drain.v) for any number of writers, readers,
   CleanUp callers, lock holders and spawned tasks, and its consequence: in every terminal
   configuration reachable under every schedule all threads have finished, the write buffer is empty,
   the status is idle and the eviction lock is free.  The invariant is stated over counts of threads
   per program counter plus one pointer fact about a spawner's task; a thread's move replaces its
   contribution to each count by another, which makes every step linear arithmetic. *)
From stdpp Require Import gmap.
From Coq Require Import List Lia Arith.
Import ListNotations.
From Otter Require Base.
From Otter Require Import Drain DrainProofs.

Definition cnt (f : thread -> bool) (ths : list thread) : nat := length (filter f ths).
Definition pceq (p q : pc) : bool := Nat.eqb (pc_to_nat p) (pc_to_nat q).
Definition at_pc (q : pc) (t : thread) : bool := pceq t.1 q.
Definition tok0 (t : thread) : bool := (pceq t.1 DTry || pceq t.1 DCas) && Nat.eqb t.2 0.
Definition b2n (b : bool) : nat := if b then 1 else 0.

Lemma nat_to_pc_to_nat p : nat_to_pc (pc_to_nat p) = p.
Proof. destruct p; reflexivity. Qed.

Lemma pceq_eq p q : pceq p q = true <-> p = q.
Proof.
  unfold pceq. rewrite Nat.eqb_eq. split; [|intros ->; reflexivity].
  intros H. rewrite <- (nat_to_pc_to_nat p), <- (nat_to_pc_to_nat q), H. reflexivity.
Qed.

Lemma cnt_app f l1 l2 : cnt f (l1 ++ l2) = cnt f l1 + cnt f l2.
Proof. unfold cnt. rewrite filter_app, app_length. reflexivity. Qed.

Lemma cnt_cons f t l : cnt f (t :: l) = b2n (f t) + cnt f l.
Proof. exact (Base.count_cons f t l). Qed.

Lemma cnt_pos f l : 1 <= cnt f l -> exists j t, nth_error l j = Some t /\ f t = true.
Proof. exact (Base.count_pos f l). Qed.

Lemma cnt_zero f l : Forall (fun t => f t = false) l -> cnt f l = 0.
Proof. intros H. apply Base.count_zero, Forall_forall, H. Qed.

(* [set_nth] is the same fixpoint as [upd] of Base.v, whose lemmas therefore apply to it as they stand. *)
Lemma set_nth_length {A} (x : A) l i : length (set_nth i x l) = length l.
Proof. exact (Base.upd_length i x l). Qed.

Lemma nth_error_set_nth_eq {A} (x : A) l i : i < length l -> nth_error (set_nth i x l) i = Some x.
Proof. exact (Base.nth_error_upd_same i x l). Qed.

Lemma nth_error_set_nth_neq {A} (x : A) l i j : i <> j -> nth_error (set_nth i x l) j = nth_error l j.
Proof. exact (Base.nth_error_upd_other i j x l). Qed.

Section Counts.
Variable ths : list thread.
Definition n_ (p : pc) : nat := cnt (at_pc p) ths.
Definition ntok0 : nat := cnt tok0 ths.
Definition n_owner : nat :=
  n_ SLoad2 + n_ SUnlockRet + n_ SStore + n_ SSpawn + n_ SUnlock + n_ MStore + n_ MDrain +
  n_ MLoad + n_ MCas + n_ MStoreReq + n_ MUnlock + n_ GLoad + n_ IDrain.
Definition n_mid : nat := n_ SUnlockRet + n_ SSpawn + n_ SUnlock + n_ MDrain + n_ MLoad + n_ MCas.
Definition n_A : nat :=
  n_ SSpawn + n_ DTry + n_ DCas + n_ DLock + n_ MStore + n_ MDrain + n_ MLoad + n_ MCas + n_ MStoreReq.
Definition n_W1 : nat :=
  n_ SLoad + n_ STry + n_ SLoad2 + n_ SStore + n_ MStore + n_ DTry + n_ DCas + n_ DLock + n_ CLock +
  n_ MStoreReq + n_ MUnlock + n_ RLoad + n_ GLock + n_ GLoad + n_ ILock + n_ IDrain.
Definition n_C : nat :=
  n_ SStore + n_ SSpawn + n_ DTry + n_ DCas + n_ DLock + n_ CLock + n_ MStore + n_ MDrain.
Definition ptr_ok : Prop :=
  forall i a, nth_error ths i = Some (SCas, a) ->
  forall tp, nth_error ths a = Some (tp, 0) -> tp = DTry \/ tp = DCas.
End Counts.

Definition CInv (s : dstate) : Prop :=
  let ds := ds_of s in let wb := wb_of s in let ths := ths_of s in
  ds <= 3 /\
  n_owner ths + ntok0 ths = b2n (lock_of s) /\
  (1 <= n_mid ths + ntok0 ths -> ds = 2 \/ ds = 3) /\
  (ds = 2 \/ ds = 3 -> 1 <= n_A ths) /\
  (ds = 1 -> 1 <= n_W1 ths) /\
  ((ds = 1 \/ ds = 3 \/ 1 <= n_C ths) \/
   (ds = 2 /\ wb <= n_ ths WLoad + n_ ths WCasP2R) \/
   (ds = 0 /\ wb <= n_ ths WLoad + n_ ths WCasReq + n_ ths WCasP2R)) /\
  ptr_ok ths.

(* The arithmetic part needs nine counts: five classes of program counters (the owner of the lock; an
   owner at a point where the status is "processing"; a thread that will finish a "processing" status;
   one that will act on a "required" status; one that will drain), the tasks whose token is free, and
   three single program counters of scheduleAfterWrite *)

Inductive cls := Kowner | Kmid | KA | KW1 | KC | Ktok | Kwl | Kwcr | Kwcp.

Definition among (l : list pc) (t : thread) : bool := existsb (pceq t.1) l.

Definition in_cls (k : cls) : thread -> bool :=
  match k with
  | Kowner => among [SLoad2; SUnlockRet; SStore; SSpawn; SUnlock; MStore; MDrain; MLoad; MCas; MStoreReq; MUnlock; GLoad; IDrain]
  | Kmid => among [SUnlockRet; SSpawn; SUnlock; MDrain; MLoad; MCas]
  | KA => among [SSpawn; DTry; DCas; DLock; MStore; MDrain; MLoad; MCas; MStoreReq]
  | KW1 => among [SLoad; STry; SLoad2; SStore; MStore; DTry; DCas; DLock; CLock; MStoreReq; MUnlock; RLoad; GLock; GLoad; ILock; IDrain]
  | KC => among [SStore; SSpawn; DTry; DCas; DLock; CLock; MStore; MDrain]
  | Ktok => tok0
  | Kwl => at_pc WLoad
  | Kwcr => at_pc WCasReq
  | Kwcp => at_pc WCasP2R
  end.

Definition count (ths : list thread) (k : cls) : nat := cnt (in_cls k) ths.

Definition Arith (ds : nat) (lock : bool) (wb : nat) (v : cls -> nat) : Prop :=
  ds <= 3 /\
  v Kowner + v Ktok = b2n lock /\
  (1 <= v Kmid + v Ktok -> ds = 2 \/ ds = 3) /\
  (ds = 2 \/ ds = 3 -> 1 <= v KA) /\
  (ds = 1 -> 1 <= v KW1) /\
  ((ds = 1 \/ ds = 3 \/ 1 <= v KC) \/
   (ds = 2 /\ wb <= v Kwl + v Kwcp) \/
   (ds = 0 /\ wb <= v Kwl + v Kwcr + v Kwcp)).

Lemma cnt_among_cons q l ths : existsb (pceq q) l = false -> cnt (among (q :: l)) ths = n_ ths q + cnt (among l) ths.
Proof.
  intros Hq. unfold n_. induction ths as [|[p a] ths IH]; [reflexivity|]. rewrite !cnt_cons, IH.
  unfold among at 1 3, at_pc. cbn [fst existsb].
  destruct (pceq p q) eqn:E; cbn [orb b2n]; [|lia]. apply pceq_eq in E. subst p. rewrite Hq. cbn [b2n]. lia.
Qed.

Lemma class_counts ths :
  n_owner ths = count ths Kowner /\ n_mid ths = count ths Kmid /\ n_A ths = count ths KA /\
  n_W1 ths = count ths KW1 /\ n_C ths = count ths KC.
Proof.
  unfold n_owner, n_mid, n_A, n_W1, n_C, count. cbn [in_cls]. rewrite !cnt_among_cons by reflexivity.
  rewrite !(cnt_zero (among [])) by (apply Forall_forall; reflexivity). repeat split; lia.
Qed.

Lemma CInv_counts s : CInv s <-> Arith (ds_of s) (lock_of s) (wb_of s) (count (ths_of s)) /\ ptr_ok (ths_of s).
Proof.
  unfold CInv, Arith. cbv zeta. destruct (class_counts (ths_of s)) as (-> & -> & -> & -> & ->). tauto.
Qed.

Lemma Arith_ext ds lock wb v v' : (forall k, v k = v' k) -> Arith ds lock wb v -> Arith ds lock wb v'.
Proof. intros E H. unfold Arith. rewrite <- !E. exact H. Qed.

(* how the classes lie in one another; holds of the counts over any list.  The steps need it where a
   thread leaves W1 while the status is "required" (giving up at TryLock, say): the lock then has an owner
   that is not in mid, hence in W1, and that owner is who will act on the status *)
Definition nested (v : cls -> nat) : Prop :=
  v Kmid <= v Kowner /\ v Kowner <= v Kmid + v KW1 /\ v KA <= v Kmid + v KW1 /\ v KC <= v Kmid + v KW1.

Lemma cnt_le f g h l : (forall t, f t = true -> g t || h t = true) -> cnt f l <= cnt g l + cnt h l.
Proof.
  intros H. induction l as [|t l IH]; [reflexivity|]. rewrite !cnt_cons. specialize (H t).
  destruct (f t), (g t), (h t); cbn [b2n orb] in *; lia.
Qed.

Lemma nested_count ths : nested (count ths).
Proof.
  unfold nested, count. repeat split.
  1: pose proof (cnt_le (in_cls Kmid) (in_cls Kowner) (fun _ => false) ths) as H; rewrite (cnt_zero (fun _ => false)) in H by (apply Forall_forall; reflexivity).
  2-4: apply cnt_le.
  1: rewrite <- Nat.add_0_r; apply H.
  all: intros [[] a]; (discriminate || reflexivity).
Qed.

Lemma split_thread ths i t : nth_error ths i = Some t ->
  exists rest, forall f, cnt f ths = cnt f rest + b2n (f t) /\ forall t', cnt f (set_nth i t' ths) = cnt f rest + b2n (f t').
Proof. exact (Base.count_split ths i t). Qed.

Lemma cnt_ge f l j t : nth_error l j = Some t -> b2n (f t) <= cnt f l.
Proof. intros H. exact (proj1 (Base.count_upd f t l j t H)). Qed.

Lemma cnt_set_nth f x l i old :
  nth_error l i = Some old -> cnt f (set_nth i x l) + b2n (f old) = cnt f l + b2n (f x).
Proof. intros H. exact (proj2 (Base.count_upd f x l i old H)). Qed.

Lemma Arith_move_spawn ds lock wb ds' lock' wb' ths i t t' new :
  nth_error ths i = Some t ->
  (forall r, nested r -> Arith ds lock wb (fun k => r k + b2n (in_cls k t)) ->
             Arith ds' lock' wb' (fun k => r k + b2n (in_cls k t') + count new k)) ->
  Arith ds lock wb (count ths) -> Arith ds' lock' wb' (count (set_nth i t' ths ++ new)).
Proof.
  intros Hi Hr HA. destruct (split_thread ths i t Hi) as [rest Hrest].
  eapply Arith_ext; [|apply (Hr (count rest) (nested_count rest)); revert HA; apply Arith_ext].
  - intros k. unfold count. rewrite cnt_app. destruct (Hrest (in_cls k)) as [_ H]. rewrite H. reflexivity.
  - intros k. apply Hrest.
Qed.

Lemma Arith_move ds lock wb ds' lock' wb' ths i t t' :
  nth_error ths i = Some t ->
  (forall r, nested r -> Arith ds lock wb (fun k => r k + b2n (in_cls k t)) -> Arith ds' lock' wb' (fun k => r k + b2n (in_cls k t'))) ->
  Arith ds lock wb (count ths) -> Arith ds' lock' wb' (count (set_nth i t' ths)).
Proof.
  intros Hi Hr HA. rewrite <- (app_nil_r (set_nth i t' ths)). eapply Arith_move_spawn; [exact Hi| |exact HA].
  intros r Hn H. apply (Hr r Hn) in H. revert H. apply Arith_ext. intros k. cbn. lia.
Qed.

Ltac contrib :=
  unfold Arith, nested;
  cbn [count cnt filter length in_cls among existsb at_pc tok0 pceq pc_to_nat Nat.eqb fst snd orb andb b2n].

Ltac by_contrib := contrib; intros ? (? & ? & ? & ? & ? & ?); repeat split; first [assumption|lia].

Lemma ptr_step ths i p a p' a' :
  ptr_ok ths -> nth_error ths i = Some (p, a) -> p' <> SCas ->
  (a' = 0 -> a = 0 /\ (p = DTry \/ p = DCas -> p' = DTry \/ p' = DCas)) ->
  ptr_ok (set_nth i (p', a') ths).
Proof.
  intros Hp Hi Hn Ha j b Hj tp Hb.
  assert (Hlt : i < length ths) by (apply nth_error_Some; rewrite Hi; discriminate).
  destruct (Nat.eq_dec j i) as [->|Hji].
  - rewrite nth_error_set_nth_eq in Hj by assumption. injection Hj as E _. contradiction.
  - rewrite nth_error_set_nth_neq in Hj by lia.
    destruct (Nat.eq_dec b i) as [->|Hbi].
    + rewrite nth_error_set_nth_eq in Hb by assumption. injection Hb as <- E.
      destruct (Ha E) as [-> Hpp]. apply Hpp. exact (Hp j i Hj p Hi).
    + rewrite nth_error_set_nth_neq in Hb by lia. exact (Hp j b Hj tp Hb).
Qed.

Lemma ptr_append ths i p a p' a' q b :
  ptr_ok ths -> nth_error ths i = Some (p, a) -> a' <> 0 -> (p' = SCas -> a' = length ths) ->
  (b = 0 -> q = DTry) -> q <> SCas ->
  ptr_ok (set_nth i (p', a') ths ++ [(q, b)]).
Proof.
  intros Hp Hi Ha' Hs Hb Hq j c Hj tp Hc.
  assert (Hlt : i < length ths) by (apply nth_error_Some; rewrite Hi; discriminate).
  assert (Hlen : length (set_nth i (p', a') ths) = length ths) by apply set_nth_length.
  assert (Hnew : forall n u, length ths <= n -> nth_error (set_nth i (p', a') ths ++ [(q, b)]) n = Some u -> n = length ths /\ u = (q, b)).
  { intros n u Hn Hu. rewrite nth_error_app2 in Hu by lia. rewrite Hlen in Hu.
    destruct (n - length ths) as [|[|m]] eqn:E; cbn [nth_error] in Hu; [injection Hu as <-; split; [lia|reflexivity]|discriminate Hu..]. }
  assert (Hold : forall n u, n < length ths -> nth_error (set_nth i (p', a') ths ++ [(q, b)]) n = Some u ->
                   (n = i /\ u = (p', a')) \/ (n <> i /\ nth_error ths n = Some u)).
  { intros n u Hn Hu. rewrite nth_error_app1 in Hu by lia. destruct (Nat.eq_dec n i) as [->|N].
    - rewrite nth_error_set_nth_eq in Hu by assumption. injection Hu as <-. left. split; reflexivity.
    - rewrite nth_error_set_nth_neq in Hu by lia. right. split; assumption. }
  destruct (Nat.lt_ge_cases c (length ths)) as [Lc|Gc].
  - destruct (Hold c _ Lc Hc) as [[_ E]|[Nc Hc']]; [injection E as _ E; congruence|].
    destruct (Nat.lt_ge_cases j (length ths)) as [Lj|Gj].
    + destruct (Hold j _ Lj Hj) as [[_ E]|[_ Hj']]; [injection E as E1 E2; specialize (Hs (eq_sym E1)); lia|exact (Hp j c Hj' tp Hc')].
    + destruct (Hnew j _ Gj Hj) as [_ E]. injection E as E _. congruence.
  - destruct (Hnew c _ Gc Hc) as [_ E]. injection E as -> E. left. apply Hb. congruence.
Qed.

Definition waits (p : pc) : bool := match p with DLock | CLock | GLock | ILock => true | _ => false end.

Lemma step_enabled ds lock wb (ths : list thread) j p a :
  nth_error ths j = Some (p, a) -> p <> Done -> (waits p = true -> lock = false) ->
  exists s', dstep (ds, lock, wb, ths) j = Some s'.
Proof.
  intros Hj Hd Hl. unfold dstep. cbn [ds_of lock_of wb_of ths_of fst snd]. rewrite Hj.
  destruct p; try contradiction; try rewrite Hl by reflexivity; try (eexists; reflexivity).
  - destruct ds as [|[|[|?]]]; eexists; reflexivity.
  - destruct (Nat.eqb ds 2); eexists; reflexivity.
  - destruct (Nat.leb 2 ds); eexists; reflexivity.
  - destruct lock; eexists; reflexivity.
  - destruct (Nat.leb 2 ds); eexists; reflexivity.
  - destruct (nth_error ths a) as [[tp [|ta]]|]; eexists; reflexivity.
  - destruct lock; eexists; reflexivity.
  - destruct (Nat.eqb a 0); eexists; reflexivity.
  - destruct wb; eexists; reflexivity.
  - destruct (Nat.eqb ds 2); eexists; reflexivity.
  - destruct (Nat.eqb ds 2); eexists; reflexivity.
  - destruct (Nat.eqb ds 1); eexists; reflexivity.
  - destruct ds as [|[|?]]; [destruct (Nat.eqb a 0)| |]; eexists; reflexivity.
  - destruct (Nat.eqb ds 1); eexists; reflexivity.
  - destruct wb; eexists; reflexivity.
  - destruct a as [|[|[|a]]]; eexists; reflexivity.
Qed.

(* the steps in which thread i alone changes *)
Ltac moves Hi HA HP :=
  let E := fresh in intros E; injection E as <-; cbn [ds_of lock_of wb_of ths_of mk fst snd];
  split;
  [eapply Arith_move; [exact Hi| |exact HA]; intros r; by_contrib
  |eapply ptr_step; [exact HP|exact Hi|discriminate|];
   let E := fresh in intros E;
   first [discriminate E|split; [exact E|]; let X := fresh in intros [X|X]; first [discriminate X|right; reflexivity]]].

Lemma CInv_step s i s' : CInv s -> dstep s i = Some s' -> CInv s'.
Proof.
  rewrite !CInv_counts. destruct s as [[[ds lock] wb] ths]. unfold dstep. cbn [ds_of lock_of wb_of ths_of mk fst snd].
  intros [HA HP]. destruct (nth_error ths i) as [[p a]|] eqn:Hi; [|discriminate].
  assert (Hb : b2n lock <= 1) by (destruct lock; cbn; lia).
  destruct p.
  - (* WPush *) moves Hi HA HP.
  - (* WLoad *) destruct ds as [|[|[|ds]]]; moves Hi HA HP.
  - (* WCasReq *) destruct (Nat.eqb_spec ds 0) as [->|N]; moves Hi HA HP.
  - (* WCasP2R *) destruct (Nat.eqb_spec ds 2) as [->|N]; moves Hi HA HP.
  - (* SLoad *) destruct (Nat.leb_spec 2 ds); moves Hi HA HP.
  - (* STry *) destruct lock; moves Hi HA HP.
  - (* SLoad2 *) destruct (Nat.leb_spec 2 ds); moves Hi HA HP.
  - (* SUnlockRet *) moves Hi HA HP.
  - (* SStore *) moves Hi HA HP.
  - (* SSpawn: the new task is appended with a free token, the spawner points at it *)
    intros E; injection E as <-. cbn [ds_of lock_of wb_of ths_of mk fst snd]. split.
    + eapply Arith_move_spawn; [exact Hi| |exact HA]. intros r. contrib. lia.
    + eapply ptr_append; [exact HP|exact Hi| |reflexivity|reflexivity|discriminate].
      destruct ths; [destruct i; discriminate Hi|discriminate].
  - (* SCas *)
    destruct (nth_error ths a) as [[tp [|ta]]|] eqn:Ha; [|moves Hi HA HP..].
    (* the token is free: two threads change.  In between — the token taken, the spawner not yet at
       SUnlock — nobody owns the lock, which the arithmetic part expresses as a free lock *)
    intros E; injection E as <-. cbn [ds_of lock_of wb_of ths_of mk fst snd].
    assert (Htp : tp = DTry \/ tp = DCas) by exact (HP i a Hi tp Ha).
    assert (Hia : i <> a) by (intros ->; rewrite Hi in Ha; injection Ha as E _; destruct Htp as [-> | ->]; discriminate E).
    assert (Hi' : nth_error (set_nth a (tp, 1) ths) i = Some (SCas, a)) by (rewrite nth_error_set_nth_neq by lia; exact Hi).
    assert (Hds : (ds = 2 \/ ds = 3) /\ b2n lock = 1).
    { pose proof (cnt_ge tok0 ths a _ Ha) as Ht. destruct HA as (_ & I2 & I3 & _). unfold count in *. cbn [in_cls] in *.
      destruct Htp as [-> | ->]; cbn in Ht; lia. }
    split.
    + eapply Arith_move; [exact Hi'| |eapply (Arith_move ds lock wb ds false wb); [exact Ha| |exact HA]];
        intros r; destruct Htp as [-> | ->]; by_contrib.
    + eapply ptr_step; [eapply ptr_step; [exact HP|exact Ha| |discriminate]|exact Hi'|discriminate|discriminate].
      destruct Htp as [-> | ->]; discriminate.
  - (* SUnlock *) moves Hi HA HP.
  - (* DTry: a task whose token is free finds the lock held, by its spawner *)
    destruct lock, a as [|a]; try moves Hi HA HP.
    exfalso. pose proof (cnt_ge tok0 ths i _ Hi) as Ht. destruct HA as (_ & I2 & _). unfold count in I2. cbn [in_cls b2n] in I2. cbn in Ht. lia.
  - (* DCas *) destruct a as [|a]; cbn [Nat.eqb]; moves Hi HA HP.
  - (* DLock *) destruct lock; [discriminate|]. moves Hi HA HP.
  - (* CLock *) destruct lock; [discriminate|]. moves Hi HA HP.
  - (* MStore *) moves Hi HA HP.
  - (* MDrain *) destruct wb as [|wb]; moves Hi HA HP.
  - (* MLoad *) destruct (Nat.eqb_spec ds 2) as [->|N]; moves Hi HA HP.
  - (* MCas *) destruct (Nat.eqb_spec ds 2) as [->|N]; moves Hi HA HP.
  - (* MStoreReq *) moves Hi HA HP.
  - (* MUnlock *) moves Hi HA HP.
  - (* RLoad *) destruct (Nat.eqb_spec ds 1) as [->|N]; moves Hi HA HP.
  - (* Done *) discriminate.
  - (* RdLoad *) destruct ds as [|[|ds]]; [destruct (Nat.eqb a 0)| |]; moves Hi HA HP.
  - (* GLock *) destruct lock; [discriminate|]. moves Hi HA HP.
  - (* GLoad *) destruct (Nat.eqb_spec ds 1) as [->|N]; moves Hi HA HP.
  - (* ILock *) destruct lock; [discriminate|]. moves Hi HA HP.
  - (* IDrain *) destruct wb as [|wb]; moves Hi HA HP.
  - (* FTry: a refused writer spawns the helper that runs scheduleDrainBuffers *)
    destruct a as [|[|[|a]]]; [moves Hi HA HP..|].
    intros E; injection E as <-. cbn [ds_of lock_of wb_of ths_of mk fst snd]. split.
    + eapply Arith_move_spawn; [exact Hi| |exact HA]. intros r. contrib. lia.
    + eapply ptr_append; [exact HP|exact Hi|discriminate|discriminate|discriminate|discriminate].
Qed.

(* a thread that has not moved yet *)
Definition fresh (t : thread) : bool :=
  match t.1 with WPush | CLock | RdLoad | GLock | ILock | FTry => true | _ => false end.

Lemma CInv_fresh ths : Forall (fun t => fresh t = true) ths -> CInv (mk 0 false 0 ths).
Proof.
  intros HF. apply CInv_counts. cbn [ds_of lock_of wb_of ths_of mk fst snd]. split.
  - assert (Hz : forall k, (forall t, fresh t = true -> in_cls k t = false) -> count ths k = 0).
    { intros k Hk. apply cnt_zero. revert HF. apply Forall_impl. exact Hk. }
    unfold Arith. rewrite (Hz Kowner), (Hz Kmid), (Hz Ktok) by (intros [[] a]; (discriminate || reflexivity)). cbn. lia.
  - intros i a Hi. rewrite Forall_forall in HF. apply nth_error_In in Hi. apply HF in Hi. discriminate Hi.
Qed.

Lemma CInv_reachable_fresh ths s : Forall (fun t => fresh t = true) ths -> reachable (mk 0 false 0 ths) s -> CInv s.
Proof. intros HF R. induction R as [|s i s' R IH Hs]; [apply CInv_fresh; exact HF|exact (CInv_step s i s' IH Hs)]. Qed.

Lemma terminal_no_step s : terminal s = true -> forall j, dstep s j = None.
Proof.
  unfold terminal. intros H j. destruct (dstep s j) as [s'|] eqn:E; [|reflexivity].
  apply succs_complete in E. destruct (succs s); [destruct E|discriminate H].
Qed.

Theorem CInv_terminal_drained s : CInv s -> terminal s = true -> drained s = true.
Proof.
  intros HI T. pose proof (terminal_no_step s T) as Hno. apply CInv_counts in HI.
  destruct s as [[[ds lock] wb] ths]. cbn [ds_of lock_of wb_of ths_of fst snd] in HI. destruct HI as [HA _].
  assert (Hen : forall j p a, nth_error ths j = Some (p, a) -> p <> Done -> waits p = true /\ lock = true).
  { intros j p a Hj Hd. destruct (waits p) eqn:W; [destruct lock eqn:L; [split; reflexivity|]|]; exfalso;
      (destruct (step_enabled ds lock wb ths j p a Hj Hd) as (s' & Hs); [congruence|subst; rewrite Hno in Hs; discriminate Hs]). }
  (* a thread that is not finished waits for the held lock, so it does not own it: the lock is free, and
     every thread has finished *)
  assert (lock = false).
  { assert (Hz : forall k, (forall p a, in_cls k (p, a) = true -> p <> Done /\ waits p = false) -> count ths k = 0).
    { intros k Hk. apply cnt_zero, Forall_forall. intros [p a] Hin. apply In_nth_error in Hin. destruct Hin as [j Hj].
      destruct (in_cls k (p, a)) eqn:E; [|reflexivity]. destruct (Hk p a E) as [Hd W]. destruct (Hen j p a Hj Hd) as [W' _]. congruence. }
    destruct HA as (_ & I2 & _).
    rewrite (Hz Kowner), (Hz Ktok) in I2 by (intros [] a E; try discriminate E; split; (discriminate || reflexivity)).
    destruct lock; [discriminate I2|reflexivity]. }
  subst lock.
  assert (Hdone : forall j p a, nth_error ths j = Some (p, a) -> p = Done).
  { intros j p a Hj. destruct (pc_eq_dec p Done) as [E|N]; [exact E|]. destruct (Hen j p a Hj N) as [_ E]. discriminate E. }
  apply (Arith_ext _ _ _ _ (fun _ => 0)) in HA.
  2:{ intros k. apply cnt_zero, Forall_forall. intros [p a] Hin. apply In_nth_error in Hin. destruct Hin as [j Hj].
      rewrite (Hdone j p a Hj). destruct k; reflexivity. }
  assert (ds = 0 /\ wb = 0) as [-> ->] by (unfold Arith in HA; lia).
  unfold drained, all_done. cbn [ds_of lock_of wb_of ths_of fst snd Nat.eqb negb andb]. rewrite !andb_true_r.
  apply forallb_forall. intros [p a] Hin. apply In_nth_error in Hin. destruct Hin as (j & Hj).
  cbn [fst]. rewrite (Hdone j p a Hj). apply bool_decide_eq_true. reflexivity.
Qed.

Theorem drained_fresh ths : Forall (fun t => fresh t = true) ths -> forall sched,
  let s := run_sched (mk 0 false 0 ths) sched in terminal s = true -> drained s = true.
Proof.
  intros HF sched s T. apply CInv_terminal_drained; [|exact T].
  apply (CInv_reachable_fresh ths); [exact HF|]. apply run_sched_reachable. constructor.
Qed.

Lemma fresh_repeat t n : fresh t = true -> Forall (fun t => fresh t = true) (repeat t n).
Proof. intros H. apply Forall_forall. intros u Hu. apply repeat_spec in Hu. subst u. exact H. Qed.

Lemma cnt_map_ftry_at (fs : list nat) : cnt (at_pc FTry) (map (fun a => (FTry, a)) fs) = length fs.
Proof. induction fs as [|a fs IH]; [reflexivity|]. cbn [map length]. rewrite cnt_cons, IH. reflexivity. Qed.

Ltac fresh_population := repeat (apply Forall_app; split); try (apply fresh_repeat; reflexivity).

Theorem CInv_reachable w c s : reachable (dinit w c) s -> CInv s.
Proof. apply CInv_reachable_fresh. fresh_population. Qed.

(* any number of writers and CleanUp callers, every schedule *)
Theorem drained_any_population w c : forall sched,
  let s := run_sched (dinit w c) sched in terminal s = true -> drained s = true.
Proof. apply drained_fresh. fresh_population. Qed.

(* ... and with any number of readers (whose read was buffered, or found the read buffer full) *)
Theorem drained_any_population_with_readers w c rd rf : forall sched,
  let s := run_sched (dinitR w c rd rf) sched in terminal s = true -> drained s = true.
Proof. apply drained_fresh. fresh_population. Qed.

(* ... and with any number of callers of the other operations that take the eviction lock: GetMaximum /
   WeightedSize (maintenance only when the status is "required") and InvalidateAll (its own drain of the
   write buffer); each ends with Unlock followed by rescheduleCleanUpIfIncomplete *)
Theorem drained_any_population_with_lock_holders w c rd rf g iv : forall sched,
  let s := run_sched (dinitA w c rd rf g iv) sched in terminal s = true -> drained s = true.
Proof. apply drained_fresh. fresh_population. Qed.

(* ... and with any number of writers that find the write buffer full any number of times — each refusal followed
   by a scheduleDrainBuffers call — and then either get their event accepted or, the retries exhausted, run the
   maintenance themselves (afterWriteTask's caller-runs fallback) *)
Theorem drained_any_population_with_fallback w c rd rf g iv fs : forall sched,
  let s := run_sched (dinitF w c rd rf g iv fs) sched in terminal s = true -> drained s = true.
Proof. apply drained_fresh. fresh_population. apply Forall_map, Forall_forall. reflexivity. Qed.
