(* DrainFast.v — the same exhaustive exploration as Drain.v's [explore], on a positive-keyed map:
   configurations are stored under a compact numeric key; a key that is already taken by a DIFFERENT
   configuration makes the check fail (so injectivity of the key is not assumed).  With it the
   populations of DrainBounded.v take seconds and larger ones become feasible. *)
From stdpp Require Import gmap pmap.
From Coq Require Import List.
Import ListNotations.
From Otter Require Import Drain DrainProofs.

Definition enc_thread (acc : N) (t : thread) : N :=
  (N.of_nat (pc_to_nat t.1) + 32 * (N.of_nat t.2 + 32 * acc))%N.

Definition enc (s : dstate) : positive :=
  N.succ_pos (N.of_nat (ds_of s) + 4 * ((if lock_of s then 1 else 0) + 2 * (N.of_nat (wb_of s) + 64 * fold_left enc_thread (ths_of s) 1)))%N.

Definition mem (m : Pmap dstate) (s : dstate) : bool :=
  match m !! enc s with Some s' => bool_decide (s' = s) | None => false end.

(* add the successors of the frontier; None = key collision *)
Fixpoint add_all (l : list dstate) (fr : list dstate) (m : Pmap dstate) : option (list dstate * Pmap dstate) :=
  match l with
  | [] => Some (fr, m)
  | s :: l' =>
      match m !! enc s with
      | Some s' => if bool_decide (s' = s) then add_all l' fr m else None
      | None => add_all l' (s :: fr) (<[enc s := s]> m)
      end
  end.

Fixpoint explore_fast (fuel : nat) (frontier : list dstate) (m : Pmap dstate) : option (Pmap dstate) :=
  match fuel with
  | O => None
  | S f =>
      match frontier with
      | [] => Some m
      | _ => match add_all (flat_map succs frontier) [] m with
             | Some (fr, m') => explore_fast f fr m'
             | None => None
             end
      end
  end.

Definition values (m : Pmap dstate) : list dstate := map snd (map_to_list m).

Definition closed_fast (m : Pmap dstate) : bool :=
  forallb (fun s => forallb (mem m) (succs s)) (values m).

Definition terminals_drained_fast (m : Pmap dstate) : bool :=
  forallb (fun s => implb (terminal s) (drained s)) (values m).

Definition check_fast (w c fuel : nat) : bool :=
  let s0 := dinit w c in
  match explore_fast fuel [s0] {[enc s0 := s0]} with
  | Some m => mem m s0 && closed_fast m && terminals_drained_fast m
  | None => false
  end.

Definition size_fast (w c fuel : nat) : option nat :=
  let s0 := dinit w c in
  match explore_fast fuel [s0] {[enc s0 := s0]} with Some m => Some (length (values m)) | None => None end.

Lemma mem_values m s : mem m s = true -> In s (values m).
Proof.
  unfold mem, values. destruct (m !! enc s) as [s'|] eqn:E; [|discriminate].
  intros H. apply bool_decide_eq_true in H. subst s'.
  apply in_map_iff. exists (enc s, s). split; [reflexivity|].
  apply elem_of_list_In. apply elem_of_map_to_list. exact E.
Qed.

Lemma closed_fast_spec m : closed_fast m = true -> forall s s', mem m s = true -> In s' (succs s) -> mem m s' = true.
Proof.
  unfold closed_fast. intros H s s' Hs Hs'. rewrite forallb_forall in H.
  specialize (H s (mem_values m s Hs)). rewrite forallb_forall in H. exact (H s' Hs').
Qed.

Theorem closed_fast_contains_reachable m s0 :
  mem m s0 = true -> closed_fast m = true -> forall s, reachable s0 s -> mem m s = true.
Proof.
  intros H0 Hc s R. induction R as [|s i s' R IH Hs]; [assumption|].
  eapply closed_fast_spec; [eassumption|eassumption|]. eapply succs_complete. eassumption.
Qed.

Theorem check_fast_sound w c fuel : check_fast w c fuel = true ->
  forall sched, let s := run_sched (dinit w c) sched in terminal s = true -> drained s = true.
Proof.
  unfold check_fast. destruct (explore_fast fuel [dinit w c] _) as [m|]; [|discriminate].
  intros H sched. cbv zeta. intros T.
  apply andb_true_iff in H. destruct H as [H Hd]. apply andb_true_iff in H. destruct H as [H0 Hc].
  assert (R : reachable (dinit w c) (run_sched (dinit w c) sched)) by (apply run_sched_reachable; constructor).
  pose proof (closed_fast_contains_reachable m (dinit w c) H0 Hc _ R) as Hm.
  unfold terminals_drained_fast in Hd. rewrite forallb_forall in Hd.
  specialize (Hd _ (mem_values m _ Hm)). rewrite T in Hd. exact Hd.
Qed.
