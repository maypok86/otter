(* DrainMacro.v — macro steps of the drain-status model: one thread runs from one hook point of the
   code to the next (or to the end of its call, or until it blocks on the eviction lock).  The
   correspondence engine "sched" executes the real code in exactly these units; a macro step is a
   sequence of small steps of one thread, so every configuration the engine visits is reachable in
   the small-step model and the theorems about all schedules apply to it. *)
From stdpp Require Import gmap.
From Coq Require Import List.
Import ListNotations.
From Otter Require Import Drain DrainProofs.

(* program counters at which the code has a hook point (verifPoint 3,10,4,9,5,1,2,6) or has ended *)
Definition hook_pc (p : pc) : bool :=
  match p with
  | WLoad | STry | SLoad2 | SCas | DTry | MStore | MLoad | RLoad | Done => true
  | _ => false
  end.

Definition pc_at (s : dstate) (i : nat) : pc :=
  match nth_error (ths_of s) i with Some (p, _) => p | None => Done end.

Fixpoint macro (fuel : nat) (s : dstate) (i : nat) : dstate :=
  match fuel with
  | O => s
  | S f => match dstep s i with
           | None => s
           | Some s' => if hook_pc (pc_at s' i) then s' else macro f s' i
           end
  end.

(* from WLoad the next hook point (8) follows the load at once: exactly one small step *)
Definition macro_step (s : dstate) (i : nat) : dstate :=
  match pc_at s i with
  | WLoad => match dstep s i with Some s' => s' | None => s end
  | _ => macro (64 + wb_of s) s i
  end.

(* a new thread (a writer about to push, or an explicit CleanUp caller) *)
Definition add_thread (s : dstate) (p : pc) : dstate :=
  mk (ds_of s) (lock_of s) (wb_of s) (ths_of s ++ [(p, 0)]).

Definition enabled (s : dstate) (i : nat) : bool := match dstep s i with Some _ => true | None => false end.

Definition dstate0 : dstate := mk 0 false 0 [].

Lemma macro_run fuel : forall s i, exists sched, macro fuel s i = run_sched s sched.
Proof.
  induction fuel as [|f IH]; intros s i; [exists []; reflexivity|].
  cbn [macro]. destruct (dstep s i) as [s'|] eqn:E; [|exists []; reflexivity].
  destruct (hook_pc (pc_at s' i)).
  - exists [i]. cbn [run_sched]. rewrite E. reflexivity.
  - destruct (IH s' i) as (sched & Hs). exists (i :: sched). cbn [run_sched]. rewrite E. exact Hs.
Qed.

Lemma macro_step_run s i : exists sched, macro_step s i = run_sched s sched.
Proof.
  unfold macro_step. destruct (pc_at s i); try apply macro_run.
  destruct (dstep s i) as [s'|] eqn:E; [|exists []; reflexivity].
  exists [i]. cbn [run_sched]. rewrite E. reflexivity.
Qed.

Theorem macro_step_reachable s0 s i : reachable s0 s -> reachable s0 (macro_step s i).
Proof.
  intros H. destruct (macro_step_run s i) as (sched & ->). apply run_sched_reachable. assumption.
Qed.
