(* C03 — An entry is never observable after its expiration deadline. *)
From Otter Require Import Base Seq Spec SeqRefine SeqFacts.

(* For EVERY operation (reads, writes, computes, invalidation, deadline setters, loads, refresh,
   iteration), a state holding an expired-but-unswept node for key k behaves exactly like the
   state from which that node has been removed: same return value, same callbacks (so a compute
   function sees found = false), same executor submissions, same visible deletion events, same
   statistics, and the same live contents afterwards — so the key becomes visible again only if
   the operation would have made it visible starting from "absent" (a write or a completed load). *)
Theorem C03_dead_unobservable : forall c, cfg_ok c -> forall s k o,
  op_ok o -> is_auto o = false -> map_ok (cmap s) ->
  (exists n, lookup k (cmap s) = Some n /\ has_expired c n (op_now o) = true) ->
  SR c (op_now o) (step c s o) (step c (upd_map s (remove k (cmap s))) o).
Proof.
  intros c CO s k o Hok Hna Hm (n & L & X).
  apply (step_congruence c CO); [assumption|assumption|].
  apply R_sym. apply R_remove_l.
  - right. exists n. split; [assumption|]. split; [assumption|]. eapply lookup_node_ok; eauto.
  - apply R_refl, Hm.
Qed.
Print Assumptions C03_dead_unobservable.

(* per-entry deadline setters leave an expired entry dead *)
Theorem C03_set_expires_after_no_resurrection : forall c s k d now,
  (exists n, lookup k (cmap s) = Some n /\ has_expired c n now = true) ->
  do_set_expires_after c s k d now = s.
Proof. intros c s k d now H. apply set_expires_after_dead. right. exact H. Qed.
Print Assumptions C03_set_expires_after_no_resurrection.

(* iteration (All/Keys/Values, and the Hottest order persistence uses) yields live entries only *)
Theorem C03_iteration_omits_dead : forall c m now k v,
  In (k, v) (live_pairs c m now) -> exists n, In (k, n) m /\ nval n = v /\ has_expired c n now = false.
Proof.
  intros c m now k v H. unfold live_pairs in H. apply in_map_iff in H. destruct H as ([k' n] & E & Hin).
  apply filter_In in Hin. destruct Hin as [Hin Hl]. cbn in E. injection E as <- <-.
  exists n. split; [assumption|]. split; [reflexivity|]. cbn in Hl. destruct (has_expired c n now); [discriminate|reflexivity].
Qed.
Print Assumptions C03_iteration_omits_dead.

(* over whole histories: the abstract map never holds an entry past its deadline, and the concrete
   run agrees with it (C01_refines); restated here for the observable of this property *)
Theorem C03_history : forall c, cfg_ok c -> forall ops t,
  clock_ok t ops ->
  sim_list ops (snd (run c cstate0 ops)) (snd (spec_run c cstate0 ops)).
Proof. intros c CO ops t H. exact (proj1 (run_refines c CO ops t cstate0 cstate0 H (R_init c t))). Qed.
Print Assumptions C03_history.

(* non-vacuity: an expired-unswept node exists in a reachable state of the example trace *)
Example C03_nonvacuous :
  let c := mkCfg true false false false (fun _ _ => 1) (fun _ _ _ => 100) (fun _ _ _ _ => 100) (fun _ _ cur => cur)
                 (fun _ _ cur => cur) (fun _ _ _ cur => cur) (fun _ _ _ cur => cur) (fun _ _ cur => cur) in
  let s := fst (run c cstate0 [OSet 1 11 1000]) in
  (exists n, lookup 1 (cmap s) = Some n /\ has_expired c n 1100 = true) /\
  r_ret (snd (step c s (OSet 1 12 1100))) = RVal 12 true /\
  r_ret (snd (step c s (OInvalidate 1 1100))) = RVal 0 false /\
  r_ret (snd (step c s (OGetIfPresent 1 1100))) = RVal 0 false.
Proof. vm_compute. split; [eexists; split; reflexivity|]. repeat split. Qed.
