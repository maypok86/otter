(* C05 — Policy bookkeeping agrees with the map at quiescence.
   Model: Maint.v over Policy.v / Wheel.v; the implementation is replayed task by task on the
   extracted model and every deque, counter, wheel bucket and node state is compared after every
   operation (engine "maint"), in addition to the implementation-only view oracles.

   Proved here (theories/PolicyInv.v), for EVERY event list over the system
       index actions (create / replace / remove a node, creating its add / update / delete task)
     | a task in flight reaches the write buffer — in ANY order (EPush k) —
     | reads | maintenance runs at any clock values | SetMaximum
   and for the repaired policy.update:
     C05_invariant_all_orders  the bookkeeping invariant holds in every reachable state: the deques are
         duplicate-free and disjoint, each linked node carries its deque's tag and is not dead, an
         alive node whose task was consumed is linked, and the three wrapping counters equal (mod 2^64)
         sums over the node store with a coefficient [task consumed] - [dead] per node;
     C05_quiescent  whenever no task is pending (in flight or in the write buffer): the deques hold
         exactly the nodes that are alive (the entries present), each once — so Hottest/Coldest
         enumerate exactly the entries present, nothing removed is tracked and nothing present is
         unknown — and weightedSize, windowWeightedSize, mainProtectedWeightedSize equal (mod 2^64)
         the sums of the weights linked in all deques / the window / the protected deque.
   Node identities are fresh and replace/remove act on the current (alive) node: [run_ok]. *)
From Otter Require Import Base Sketch Policy Wheel Maint PolicyFacts PolicyInv.

Theorem C05_invariant_all_orders : forall hashf evs expire weighted,
  run_ok hashf (sys0 expire weighted) evs ->
  SI (fold_left (sys_step hashf) evs (sys0 expire weighted)).
Proof. intros hashf evs expire weighted H. exact (SI_run hashf evs _ (SI_sys0 expire weighted) H). Qed.
Print Assumptions C05_invariant_all_orders.

Theorem C05_quiescent : forall hashf evs expire weighted,
  run_ok hashf (sys0 expire weighted) evs ->
  let s := fold_left (sys_step hashf) evs (sys0 expire weighted) in
  pend s = [] ->
  let p := pol (sm s) in
  NoDup (qwin p ++ qprob p ++ qprot p) /\
  (forall id, linked p id <-> alive_in p id) /\
  wsize p = wrapu (sum_weights p (qwin p ++ qprob p ++ qprot p)) /\
  wwsize p = wrapu (sum_weights p (qwin p)) /\
  pwsize p = wrapu (sum_weights p (qprot p)).
Proof. intros hashf evs expire weighted Hok s Hq. exact (quiescent_agreement _ (policy_quiescent hashf evs expire weighted Hok Hq)). Qed.
Print Assumptions C05_quiescent.

(* one maintenance run consumes the whole write buffer and keeps the invariant, whatever it holds *)
Theorem C05_maintenance_consumes_buffer : forall hashf cur rnd now adj m fl,
  MI m (fl ++ wbuf m) ->
  let m' := fst (fst (fst (m_maintenance hashf cur rnd now adj m))) in
  MI m' fl /\ wbuf m' = [].
Proof. exact MI_maintenance. Qed.
Print Assumptions C05_maintenance_consumes_buffer.

(* the repaired update: whenever the new node is no longer alive or the old one is not linked
   (its add still pending, or already evicted), update is delete(old) followed by add(new) *)
Theorem C05_update_out_of_order : forall hashf p n old,
  pstate (node_of p n) <> ALIVE \/ pol_contains p old = false ->
  pol_update hashf p n old = pol_add hashf (pol_delete p old) n.
Proof.
  intros hashf p n old H. unfold pol_update.
  destruct H as [H|H].
  - replace (pstate (node_of p n) =? ALIVE) with false by lia. reflexivity.
  - rewrite H. rewrite orb_true_r. reflexivity.
Qed.
Print Assumptions C05_update_out_of_order.

(* weights never change once a node exists: evicting any node leaves every weight as it was *)
Theorem C05_weights_immutable : forall p id x, pweight (node_of (pol_evict p id) x) = pweight (node_of p x).
Proof. exact pol_evict_weight. Qed.
Print Assumptions C05_weights_immutable.

(* non-vacuity of the hypotheses: an event list in which the update task overtakes the add task of
   the node it replaces (the order that broke the original code) is legal, ends quiescent, and the
   policy then holds exactly the surviving node *)
Example C05_hypotheses_satisfiable :
  let h := fun _ k : Z => k in
  let evs := [ESetMax 10 1 7; ECreate 101 1 1; EReplace 102 1 1 101; EPush 1; EPush 0; ERead 102;
              EMaint (fun _ => 0) 1 0 0] in
  run_ok h (sys0 false false) evs /\
  let s := fold_left (sys_step h) evs (sys0 false false) in
  pend s = [] /\ qwin (pol (sm s)) ++ qprob (pol (sm s)) ++ qprot (pol (sm s)) = [102] /\ wsize (pol (sm s)) = 1.
Proof.
  cbv zeta. split.
  - cbn [run_ok]. repeat split; try exact I; try (vm_compute; reflexivity).
    vm_compute. eexists. split; reflexivity.
  - vm_compute. repeat split.
Qed.

(* the deterministic witness of the original defect (Set(1,a); Set(1,b) before the first drain),
   replayed on the repaired model: the second node ends up linked, counted once, and the first dead *)
Example C05_out_of_order_witness_repaired :
  let h := fun _ k => k in
  let m0 := m_set_maximum (mstate0 true false false) 10 1 7 in
  let m1 := m_push (m_new m0 101 1 1) (TAdd 101) in
  let m2 := m_push (m_retire (m_new m1 102 1 1) 101) (TUpd 102 101) in
  let '(m3, _, _, _) := m_maintenance h (fun _ => 0) 1 0 0 m2 in
  (qwin (pol m3) ++ qprob (pol m3) ++ qprot (pol m3) = [102]) /\ wsize (pol m3) = 1 /\
  pstate (node_of (pol m3) 101) = DEAD /\ pstate (node_of (pol m3) 102) = ALIVE.
Proof. vm_compute. repeat split. Qed.

(* the same with the tasks arriving in the opposite order (update before add) *)
Example C05_update_before_add_repaired :
  let h := fun _ k => k in
  let m0 := m_set_maximum (mstate0 true false false) 10 1 7 in
  let m1 := m_new m0 101 1 1 in
  let m2 := m_retire (m_new m1 102 1 1) 101 in
  let m3 := m_push (m_push m2 (TUpd 102 101)) (TAdd 101) in
  let '(m4, _, _, _) := m_maintenance h (fun _ => 0) 1 0 0 m3 in
  (qwin (pol m4) ++ qprob (pol m4) ++ qprot (pol m4) = [102]) /\ wsize (pol m4) = 1 /\ wwsize (pol m4) = 1 /\
  pstate (node_of (pol m4) 101) = DEAD.
Proof. vm_compute. repeat split. Qed.

(* the hill climber's transfers (policy.climb / increaseWindow / decreaseWindow) are part of the model: the
   amount is an input (floating-point arithmetic on sampled hit rates), what is moved where is not.  They
   keep the bookkeeping invariant for every amount — C05_invariant_all_orders and C04_bound_after_maintenance
   quantify over it (the adj of EMaint).  A transfer that takes the protected head because the probation
   head is heavier than the quota: the entry goes to the window, the protected counter is decremented, the
   unused quota goes back to the maxima *)
Example C05_climber_takes_protected_head_when_probation_head_is_too_heavy :
  let nd := fun k w q => mkPnode k w ALIVE q in
  let p := mkPolicy [(1, nd 11 5 QPROBATION); (2, nd 12 1 QPROTECTED); (3, nd 13 1 QWINDOW)]
                    [3] [1] [2] 32 7 1 1 24 1 sketch0 true in
  let '(p', lft) := pol_climb_adj 2 p in
  qwin p' = [3; 2] /\ qprob p' = [1] /\ qprot p' = [] /\ wwsize p' = 2 /\ pwsize p' = 0 /\ wsize p' = 7 /\
  wmax p' = 2 /\ pmax p' = 23 /\ lft = 1 /\ pqueue (node_of p' 2) = QWINDOW.
Proof. vm_compute. repeat split. Qed.

Example C05_climber_shrinks_window :
  let nd := fun k w q => mkPnode k w ALIVE q in
  let p := mkPolicy [(1, nd 11 1 QWINDOW); (2, nd 12 1 QWINDOW); (3, nd 13 3 QWINDOW)]
                    [1; 2; 3] [] [] 32 5 6 5 20 0 sketch0 true in
  let '(p', lft) := pol_climb_adj (-2) p in
  qwin p' = [3] /\ qprob p' = [1; 2] /\ wwsize p' = 3 /\ wmax p' = 4 /\ pmax p' = 22 /\ lft = 0.
Proof. vm_compute. repeat split. Qed.

(* index actions INSIDE a maintenance run (MaintSplit.v): a run is split into its drain part (XPre)
   and its expire / evict / climb part (XPost); index actions, task arrivals in any order and reads may
   come between the two — the node a run is about to expire or evict may have been replaced or
   invalidated with the task that says so still in the write buffer.  The invariant holds in every
   reachable state of that larger event system, and whenever nothing is pending the policy agrees with
   the table. *)
From Otter Require Import MaintSplit.

Theorem C05_invariant_mid_maintenance_writes : forall hashf xs expire weighted,
  runx_ok hashf (sys0 expire weighted) xs ->
  SI (fold_left (sysx_step hashf) xs (sys0 expire weighted)).
Proof. intros hashf xs expire weighted H. exact (SX_run hashf xs _ (SI_sys0 expire weighted) H). Qed.
Print Assumptions C05_invariant_mid_maintenance_writes.

Theorem C05_quiescent_mid_maintenance_writes : forall hashf xs expire weighted,
  runx_ok hashf (sys0 expire weighted) xs ->
  let s := fold_left (sysx_step hashf) xs (sys0 expire weighted) in
  pend s = [] ->
  let p := pol (sm s) in
  NoDup (qwin p ++ qprob p ++ qprot p) /\
  (forall id, linked p id <-> alive_in p id) /\
  wsize p = wrapu (sum_weights p (qwin p ++ qprob p ++ qprot p)) /\
  wwsize p = wrapu (sum_weights p (qwin p)) /\
  pwsize p = wrapu (sum_weights p (qprot p)).
Proof. intros hashf xs expire weighted Hok s Hq. exact (quiescent_agreement _ (policy_quiescent_x hashf xs expire weighted Hok Hq)). Qed.
Print Assumptions C05_quiescent_mid_maintenance_writes.

(* the split is faithful: the two halves back to back are the whole run *)
Theorem C05_split_is_the_whole_run : forall hashf s cur rnd now adj,
  sysx_step hashf (sysx_step hashf s (XPre cur)) (XPost cur rnd now adj) = sys_step hashf s (EMaint cur rnd now adj).
Proof. exact sysx_pre_post. Qed.
Print Assumptions C05_split_is_the_whole_run.

(* non-vacuity: key 7's node 1 is replaced by node 2 after a run has drained the buffer (node 1 linked)
   and before that run's second half; the update task arrives later; at quiescence exactly node 2 is linked *)
Example C05_mid_maintenance_replace :
  let h := fun _ _ => 0 in
  let s0 := sysx_step h (sys0 false false) (XE (ESetMax 10 1 7)) in
  let xs := [XE (ECreate 1 7 1); XE (EPush 0); XPre (fun _ => 0); XE (EReplace 2 7 1 1); XPost (fun _ => 0) 1 0 0;
             XE (EPush 0); XE (EMaint (fun _ => 0) 1 0 0)] in
  let s := fold_left (sysx_step h) xs s0 in
  pend s = [] /\ qwin (pol (sm s)) ++ qprob (pol (sm s)) ++ qprot (pol (sm s)) = [2].
Proof. vm_compute. split; reflexivity. Qed.
