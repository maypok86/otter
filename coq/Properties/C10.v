(* C10 — Load outcomes map to cache state and results as documented. *)
From Otter Require Import Base Seq Spec SeqRefine SeqFacts.

(* successful load on a miss (absent or expired-unswept key): cached and returned, loader called once *)
Theorem C10_get_success : forall c s k v now,
  (lookup k (cmap s) = None \/ exists n, lookup k (cmap s) = Some n /\ has_expired c n now = true) ->
  let r := do_get c s k (LValue v) now now in
  r_ret (snd r) = RLoad v 0 /\ r_cb (snd r) = [CbLoad k] /\
  exists n, lookup k (cmap (fst r)) = Some n /\ nval n = v.
Proof. exact get_miss_value. Qed.
Print Assumptions C10_get_success.

(* failed load: the loader's value and error are returned, the table is unchanged *)
Theorem C10_failure_keeps_cache : forall c s k v now,
  cmap (fst (finish_call c s k (LError v) false now)) = cmap s /\
  snd (finish_call c s k (LError v) false now) = [] /\
  load_ret (LError v) = RLoad v 1.
Proof. intros c s k v now. rewrite finish_call_failed_load by reflexivity. auto. Qed.
Print Assumptions C10_failure_keeps_cache.

(* not-found: ErrNotFound, nothing cached, an existing entry removed (reload) *)
Theorem C10_notfound_removes : forall c s k ir now,
  lookup k (cmap (fst (finish_call c s k LNotFound ir now))) = None /\ load_ret LNotFound = RLoad 0 2.
Proof. intros c s k ir now. split; [exact (finish_call_notfound_removes c s k ir now)|reflexivity]. Qed.
Print Assumptions C10_notfound_removes.

(* panic: propagates, table unchanged *)
Theorem C10_panic_keeps_cache : forall c s k now,
  cmap (fst (finish_call c s k LPanic false now)) = cmap s /\ load_ret LPanic = RPanicked.
Proof. intros c s k now. rewrite finish_call_failed_load by reflexivity. auto. Qed.
Print Assumptions C10_panic_keeps_cache.

(* BulkGet: result = requested cached keys ++ requested missing keys the loader supplied; every
   distinct key at most once; keys the loader did not supply are absent; the loader is invoked at
   most once, with exactly the distinct missing keys; extra keys are not in the result *)
Theorem C10_bulk : forall c s ks m now,
  let '(s1, hits, stale, miss) := bulk_read c s (dedup ks []) now in
  let r := snd (do_bulk_get c s ks (BMap m) now now) in
  r_ret r = RBulk (hits ++ match miss with [] => [] | _ => loaded_pairs miss m end) 0 /\
  r_cb r = match miss with [] => [] | _ => [CbBulkLoad miss] end /\
  NoDup (map fst hits ++ miss) /\
  (forall k, In k ks <-> In k (map fst hits) \/ In k miss) /\
  (forall k v, In (k, v) (loaded_pairs miss m) <-> In k miss /\ assoc k m = Some v).
Proof.
  intros c s ks m now. pose proof (bulk_get_result c s ks m now) as H.
  destruct (bulk_read c s (dedup ks []) now) as [[[s1 h] st] mi].
  destruct H as (A & B & C & D).
  split; [exact A|]. split; [exact B|]. split; [exact C|]. split; [exact D|].
  intros k v. apply loaded_pairs_spec.
Qed.
Print Assumptions C10_bulk.

(* on a bulk loader error the result holds the hits only *)
Theorem C10_bulk_error : forall c s ks now,
  let '(s1, hits, stale, miss) := bulk_read c s (dedup ks []) now in
  r_ret (snd (do_bulk_get c s ks BError now now)) = RBulk hits (match miss with [] => 0 | _ => 1 end).
Proof.
  intros c s ks now. unfold do_bulk_get.
  destruct (bulk_read c s (dedup ks []) now) as [[[s1 h] st] mi]. destruct mi as [|k0 mi]; [reflexivity|].
  destruct (run_bulk c s1 (k0 :: mi) BError false now). reflexivity.
Qed.
Print Assumptions C10_bulk_error.

(* all of this holds of the abstract map as well: C01_refines transfers it *)
Example C10_nonvacuous :
  let c := mkCfg false false false false (fun _ _ => 1) (fun _ _ c => c) (fun _ _ _ c => c) (fun _ _ c => c)
                 (fun _ _ c => c) (fun _ _ _ c => c) (fun _ _ _ c => c) (fun _ _ c => c) in
  let s := fst (run c cstate0 [OSet 1 11 0]) in
  r_ret (snd (step c s (OBulkGet [1; 2; 3; 3] (BMap [(2, 22); (9, 99)]) 0 0))) = RBulk [(1, 11); (2, 22)] 0.
Proof. vm_compute. reflexivity. Qed.
