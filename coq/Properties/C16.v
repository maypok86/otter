(* C16 — Write buffer: each event delivered exactly once, in producer order, bounded.
   Model: Mpsc.v — the chunked MPSC queue with a push split into "reserve" (up to the winning
   producer-index CAS) and "publish" (the slot store).  The implementation is compared with the
   model after every call over all capacity pairs, including states with a producer parked between
   reserve and publish; exactly-once / per-producer order / bound are checked on free-running runs.

   Proved here (specification in theories/MpscFifo.v), for EVERY pair of capacities NewMPSC accepts and EVERY
   sequence of complete pushes and pops — through every growth step (a new buffer of twice the
   size, JUMP marker, link) and every move of the consumer into the next buffer:
     - C16_seq_fifo: the queue answers exactly like a FIFO list of capacity roundup32(maximum):
       every accepted element is returned exactly once, in the order accepted, nothing else is
       ever returned, "empty" is reported exactly when the list is empty;
     - C16_refused_exactly_when_full / C16_size_bounded: an offer is refused exactly when the
       queue holds its maximum, and the size never exceeds it.
   These are the concurrent result below for runs in which every reservation is published at once.
   CONCURRENT producers (theories/MpscConc.v), at the granularity the code offers — a push is
   "reserve" (everything up to and including the winning producer-index CAS; a growth step is part
   of it) and, later, "publish" (the slot store); any number of producers may sit between the two
   while others reserve, publish or grow the queue and the consumer pops:
     - C16_concurrent_fifo: every interleaving of reservations, publications and pops is explained
       by a FIFO of RESERVATIONS of capacity roundup32(maximum): elements are delivered exactly
       once, in reservation order (hence in every producer's program order), the consumer waits
       at a reserved, unpublished cell and never passes it, "empty" is reported only when nothing is
       reserved, and an offer is refused exactly when the queue holds its maximum.
   Atomic in Mpsc.v and MpscConc.v: the individual loads inside "reserve" (the producers' retry loop
   on a failed CAS and their spinning while another producer's growth step is in progress; the
   engine's parked-resize windows exercise them).  The index protocol at the end of this file
   (MpscIndex.v) takes them one by one. *)
From Otter Require Import Base Sketch Mpsc MpscFacts MpscFifo MpscConc MpscIndex MpscIndexProofs.

Theorem C16_seq_fifo : forall initial maximum ops,
  2 <= initial <= 2 ^ 31 -> 4 <= maximum <= 2 ^ 31 -> roundup32 initial <= roundup32 maximum ->
  qrun (mpsc_new initial maximum) ops = frun (roundup32 maximum) [] ops.
Proof.
  intros initial maximum ops Hi Hm Hle. destruct (inv_new initial maximum Hi Hm Hle) as [HI Hc].
  rewrite <- Hc. exact (fifo_refinement ops _ _ HI).
Qed.
Print Assumptions C16_seq_fifo.

Theorem C16_size_bounded : forall initial maximum ops,
  2 <= initial <= 2 ^ 31 -> 4 <= maximum <= 2 ^ 31 -> roundup32 initial <= roundup32 maximum ->
  let q := qstate (mpsc_new initial maximum) ops in
  0 <= mpsc_size q <= mpsc_capacity q.
Proof.
  intros initial maximum ops Hi Hm Hle. destruct (inv_new initial maximum Hi Hm Hle) as [HI _].
  destruct (inv_reachable ops _ _ HI) as (l' & HI'). exact (size_bounded _ _ HI').
Qed.
Print Assumptions C16_size_bounded.

Theorem C16_refused_exactly_when_full : forall initial maximum ops v,
  2 <= initial <= 2 ^ 31 -> 4 <= maximum <= 2 ^ 31 -> roundup32 initial <= roundup32 maximum ->
  let q := qstate (mpsc_new initial maximum) ops in
  snd (try_push q v) = false <-> mpsc_size q = mpsc_capacity q.
Proof.
  intros initial maximum ops v Hi Hm Hle. destruct (inv_new initial maximum Hi Hm Hle) as [HI _].
  destruct (inv_reachable ops _ _ HI) as (l' & HI'). exact (refused_iff_full _ _ v HI').
Qed.
Print Assumptions C16_refused_exactly_when_full.

Theorem C16_concurrent_fifo : forall initial maximum ops,
  2 <= initial <= 2 ^ 31 -> 4 <= maximum <= 2 ^ 31 -> roundup32 initial <= roundup32 maximum ->
  explained (roundup32 maximum) (mpsc_new initial maximum, []) (0, []) ops.
Proof. exact conc_fifo. Qed.
Print Assumptions C16_concurrent_fifo.

(* one step of the concurrent machine from any state related to the specification *)
Theorem C16_concurrent_step : forall c a o,
  CR c a ->
  let '(c', out) := cstep c o in
  exists a', astep (mpsc_capacity (fst c)) a o out = Some a' /\ CR c' a' /\
             mpsc_capacity (fst c') = mpsc_capacity (fst c).
Proof. exact sim_step. Qed.
Print Assumptions C16_concurrent_step.

(* non-vacuity: two producers reserve, the second publishes first, the consumer must wait for the
   first; then both values come out in reservation order *)
Example C16_concurrent_instance :
  let c0 : cstate := (mpsc_new 4 8, []) in
  let '(c1, o1) := cstep c0 (CReserve 10) in
  let '(c2, o2) := cstep c1 (CReserve 20) in
  let '(c3, o3) := cstep c2 (CPublish 1) in
  let '(c4, o4) := cstep c3 CPop in
  let '(c5, o5) := cstep c4 (CPublish 0) in
  let '(c6, o6) := cstep c5 CPop in
  let '(c7, o7) := cstep c6 CPop in
  (o1, o2, o3, o4, o5, o6, o7) =
  (OTicket 0 false, OTicket 1 false, OPublished true, OPopped PopWait, OPublished true,
   OPopped (PopElem 10), OPopped (PopElem 20)).
Proof. vm_compute. reflexivity. Qed.

(* the rounding NewMPSC applies: the least power of two >= x *)
Theorem C16_capacity_rounding : forall x, 1 < x <= 2 ^ 31 -> roundup32 x = 2 ^ Z.log2_up x.
Proof. intros x H. apply SketchProofs.roundup32_spec. lia. Qed.
Print Assumptions C16_capacity_rounding.

(* in ANY state (no invariant needed): refusal needs a full index range, "empty" needs the consumer
   to have caught up, a reserved-but-unpublished slot makes the consumer wait, a pop returns only
   what is stored *)
Theorem C16_refused_only_when_full : forall q v q',
  push_reserve q v = (q', RFull) -> q' = q /\ maxcap q - (pidx q - cidx q) <= 0.
Proof. exact refuse_only_when_full. Qed.
Print Assumptions C16_refused_only_when_full.

Theorem C16_empty_only_when_caught_up : forall q q', try_pop q = (q', PopEmpty) -> cidx q = pidx q.
Proof. exact pop_empty_only_when_caught_up. Qed.
Print Assumptions C16_empty_only_when_caught_up.

Theorem C16_consumer_waits_for_reserved_slot : forall q,
  buf_get q (cbuf q) (offset_of (cidx q) (cmask q)) = SNil -> cidx q <> pidx q -> try_pop q = (q, PopWait).
Proof. exact pop_waits_for_reserved_slot. Qed.
Print Assumptions C16_consumer_waits_for_reserved_slot.

Theorem C16_no_phantom : forall q q' v,
  try_pop q = (q', PopElem v) ->
  buf_get q (cbuf q) (offset_of (cidx q) (cmask q)) = SElem v \/ buf_get q (cbuf q) (offset_of (cidx q) (cmask q)) = SJump.
Proof. exact pop_returns_stored. Qed.
Print Assumptions C16_no_phantom.

(* across every growth step from capacity 2 to 8: nothing lost, nothing duplicated, order kept,
   the ninth offer refused, and the freed space reusable *)
Example C16_growth_instance :
  let push q v := fst (try_push q v) in
  let q8 := fold_left push [1; 2; 3; 4; 5; 6; 7; 8] (mpsc_new 2 8) in
  snd (try_push q8 9) = false /\ mpsc_size q8 = 8 /\
  (let '(q, r1) := try_pop q8 in let '(q, r2) := try_pop q in let '(q, r3) := try_pop q in
   let q := push (push q 10) 11 in
   let '(q, r4) := try_pop q in
   (r1, r2, r3, r4, mpsc_size q)) = (PopElem 1, PopElem 2, PopElem 3, PopElem 4, 6).
Proof. vm_compute. repeat split. Qed.

(* The index protocol of TryPush at the granularity of its individual loads and CASes (MpscIndex.v):
   the producer limit, the producer index, the mask and the consumer index are read one after the other and
   may all be stale when used.  For any number of producers, every schedule and any consumer progress:
   the queue never holds more than its capacity, and whenever the CAS on the producer index succeeds the
   mask read earlier is still the current buffer's and the slot lies in that buffer's free window — also
   when a resize happened since the limit was read (buffers only grow).  This is what justifies the atomic
   reserve step of C16_concurrent_fifo. *)
Theorem C16_index_protocol_safe : forall b0 mx n es, 1 <= b0 <= mx ->
  let s := irun (iinit b0 mx n) es in
  0 <= ip s - ic s <= imax s /\
  forall i t, nth_error (iths s) i = Some t -> ipc_ t = P4 -> irz s = false -> ip s = l_p t ->
    l_gen t = igen s /\ l_bcap t = ibcap s /\
    Z.max (ic s) (ibase s) <= l_p t < Z.max (ic s) (ibase s) + ibcap s /\ l_p t - ic s < imax s.
Proof. exact mpsc_index_safe. Qed.
Print Assumptions C16_index_protocol_safe.

Theorem C16_producer_limit_never_decreases : forall s i, IInv s -> ilim s <= ilim (istep s i).
Proof. exact limit_never_decreases. Qed.
Print Assumptions C16_producer_limit_never_decreases.

(* producers 0 and 1 claim slots 0 and 1 of the first buffer (capacity 2); producer 3 reads the limit (2)
   early; producer 2 finds the buffer full and grows the queue (new buffer from index 2, capacity 4, limit
   6); the consumer takes two; producer 3 goes on with its stale limit, takes the slow path, loses the CAS
   on the limit (it has moved), starts over and claims slot 3 of the new buffer *)
Example C16_index_protocol_instance :
  let rp := fun (i n : nat) => repeat (EvP i) n in
  let es := rp 0%nat 5%nat ++ rp 1%nat 5%nat ++ [EvP 3%nat] ++ rp 2%nat 8%nat ++ [EvC; EvC] ++ rp 3%nat 12%nat in
  let fin := irun (iinit 2 8 4) es in
  (ip fin, ic fin, ilim fin, ibase fin, ibcap fin, igen fin, irz fin) = (4, 2, 6, 2, 4, 1%nat, false) /\
  map ipc_ (iths fin) = [IClaimed 0 0; IClaimed 1 0; IGrown 2 1; IClaimed 3 1].
Proof. vm_compute. split; reflexivity. Qed.
