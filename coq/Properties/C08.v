(* C08 — Loads are single-flight and every waiter terminates.
   Model: Load.v — the single-flight protocol at the granularity of its atomic sections (get-or-create
   on the calls table; the Compute that finishes a call; the Computes of writes, invalidations and
   evictions, which remove the key's call).  Every event sequence = every interleaving at that
   granularity, any number of threads and keys. *)
From Otter Require Import Base Load LoadProofs.

Theorem C08_inv : forall es, linv (fst (lrun lstate0 es)).
Proof. exact linv_reachable. Qed.
Print Assumptions C08_inv.

(* two loader invocations for one key are never both in flight unless the older call was removed
   from the table by a write, invalidation or eviction of that key *)
Theorem C08_no_overlap : forall es c1 c2,
  let s := fst (lrun lstate0 es) in
  In c1 (lcalls s) -> In c2 (lcalls s) -> cdone c1 = None -> cdone c2 = None -> ckey c1 = ckey c2 -> c1 <> c2 ->
  csuperseded c1 = true \/ csuperseded c2 = true.
Proof. intros es c1 c2 s. apply no_overlap. apply C08_inv. Qed.
Print Assumptions C08_no_overlap.

(* a caller that finds a registered call joins it: no new call, the loader is not invoked again *)
Theorem C08_joins : forall s t k refresh id,
  alookup k (ltable s) = Some id ->
  snd (lstep s (LStart t k refresh)) = ObsJoined id /\ lcalls (fst (lstep s (LStart t k refresh))) = lcalls s.
Proof. intros s t k refresh id L. cbn [lstep]. rewrite L. split; reflexivity. Qed.
Print Assumptions C08_joins.

(* every waiter waits for a pending call, and that call's finish — whatever the loader's outcome,
   panic included — releases it *)
Theorem C08_no_stuck_waiter : forall es id oc t,
  let s := fst (lrun lstate0 es) in
  In (t, id) (lwaits s) ->
  match snd (lstep s (LFinish id oc)) with ObsFinished _ released => In t released | _ => False end.
Proof. intros es id oc t s. apply finish_releases. apply C08_inv. Qed.
Print Assumptions C08_no_stuck_waiter.

(* no in-flight record is left behind: when no load is pending the calls table is empty *)
Theorem C08_table_clean : forall es,
  let s := fst (lrun lstate0 es) in
  (forall c, In c (lcalls s) -> cdone c <> None) -> ltable s = [].
Proof. intros es s. apply table_clean. apply C08_inv. Qed.
Print Assumptions C08_table_clean.

Example C08_nonvacuous :
  let '(s, obs) := lrun lstate0 [LStart 1 7 false; LStart 2 7 false; LWrite 7 50; LStart 3 7 false; LFinish 0 OPanic; LFinish 1 (OValue 60)] in
  obs = [ObsLoads 0; ObsJoined 0; ObsNone; ObsLoads 1; ObsFinished false [2; 1]; ObsFinished true [3]] /\
  ltable s = [] /\ alookup 7 (lmap s) = Some 60.
Proof. vm_compute. repeat split. Qed.
