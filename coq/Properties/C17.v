(* C17 — The lossy read buffer may drop reads but never corrupts them.
   Model: Ring.v — one step per atomic access of ring.add / ring.drainTo; any number of producer
   threads, one consumer; a schedule is an arbitrary list of (thread, payload).
   Striped.v — the table of rings that grows under contention (stripe creation, table creation and
   table expansion under the busy spin lock), one step per access to shared state by an Add call;
   rings are abstract there (lists of recorded elements; whether ring.add succeeds, loses its CAS or
   finds the ring full is an input).  Tied to the code by the "stripe" engine (macro-step schedules
   replayed on the model). *)
From Otter Require Import Base Ring RingProofs Striped StripedProofs StripedDrain.

(* the protocol invariant holds after every schedule, from a fresh ring, for any number of producers *)
Theorem C17_inv : forall first nprod sched, inv (ring_exec (ring_init first nprod) sched).
Proof. intros. apply ring_exec_inv. apply inv_init. Qed.
Print Assumptions C17_inv.

(* what the consumer handed to the policy is a prefix of what was recorded (ring order): nothing
   that was not recorded, nothing twice *)
Theorem C17_delivered_prefix : forall first nprod sched,
  let r := ring_exec (ring_init first nprod) sched in exists rest, recorded r = delivered r ++ rest.
Proof. intros. apply inv_delivered_prefix. apply C17_inv. Qed.
Print Assumptions C17_delivered_prefix.

(* never more than the fixed capacity between head and tail *)
Theorem C17_capacity : forall first nprod sched,
  let r := ring_exec (ring_init first nprod) sched in 0 <= rtail r - rhead r <= 16.
Proof. intros. apply inv_capacity. apply C17_inv. Qed.
Print Assumptions C17_capacity.

(* a producer that reports Success has its element recorded; Failed / Full record nothing:
   the recorded list grows only at a successful tail CAS *)
Theorem C17_recorded_iff_cas : forall r j payload,
  recorded (prod_step r j payload) = recorded r \/
  exists n h, nth j (rprods r) (PDone 0) = PCas n h (rtail r) /\ recorded (prod_step r j payload) = recorded r ++ [n].
Proof.
  intros r j payload. unfold prod_step. destruct (nth j (rprods r) (PDone 0)) as [|n|n h|n h t|n t|st] eqn:E; cbn; auto.
  - destruct (rtail r - h >=? RSIZE); cbn; auto.
  - destruct (rtail r =? t) eqn:Et; cbn; auto. right. exists n, h. apply Z.eqb_eq in Et. subst t. auto.
Qed.
Print Assumptions C17_recorded_iff_cas.

(* once no producer is between its CAS and its store, one drain delivers every recorded element *)
Theorem C17_quiescent_drain : forall first nprod sched,
  let r := ring_exec (ring_init first nprod) sched in
  quiescent r -> rcons r = CIdle ->
  exists n, let r' := iter_cons n r in rcons r' = CIdle /\ delivered r' = recorded r /\ rhead r' = rtail r.
Proof. intros first nprod sched r Q C. apply quiescent_drain; [apply C17_inv|assumption|assumption]. Qed.
Print Assumptions C17_quiescent_drain.

(* non-vacuity: two producers race for the same index, one loses the CAS; the consumer stops at
   the unpublished slot and later delivers everything *)
Example C17_nonvacuous :
  let ev (t : nat) (x : Z) : nat * Z := (t, x) in
  let r0 := ring_init 100 2 in
  (* both producers reach the CAS for index 1: producer 1 wins, producer 2 fails *)
  let r1 := ring_exec r0 [ev 1%nat 7; ev 2%nat 8; ev 1%nat 0; ev 2%nat 0; ev 1%nat 0; ev 2%nat 0; ev 1%nat 0; ev 2%nat 0] in
  (* consumer: delivers 100, stops at the unpublished slot of 7 *)
  let r2 := ring_exec r1 [ev 0%nat 0; ev 0%nat 0; ev 0%nat 0; ev 0%nat 0; ev 0%nat 0; ev 0%nat 0] in
  (* producer 1 publishes; a second drain delivers 7 *)
  let r3 := ring_exec r2 [ev 1%nat 0; ev 0%nat 0; ev 0%nat 0; ev 0%nat 0; ev 0%nat 0; ev 0%nat 0; ev 0%nat 0; ev 0%nat 0; ev 0%nat 0] in
  recorded r1 = [100; 7] /\ nth 1 (rprods r1) PIdle = PDone (-1) /\ delivered r2 = [100] /\ delivered r3 = [100; 7].
Proof. vm_compute. repeat split. Qed.


(* ---- the striped table, for any number of concurrent Add calls, any schedule, any inputs ---- *)

(* no stripe is ever lost: every ring that was ever created is in the current table, so a drain visits it *)
Theorem C17_striped_no_lost_ring : forall maxl elems idxs sched r,
  let s := srun (sinit maxl elems idxs) sched in
  (r < length (rings s))%nat -> In r (visible_rings s).
Proof. intros maxl elems idxs sched r s. eapply no_lost_ring, Inv_run, Inv_init. Qed.
Print Assumptions C17_striped_no_lost_ring.

(* ... and in exactly one cell of it: a drain visits every ring once *)
Theorem C17_striped_rings_once : forall maxl elems idxs sched,
  NoDup (visible_rings (srun (sinit maxl elems idxs) sched)).
Proof. intros. eapply visible_nodup, Inv_run, Inv_init. Qed.
Print Assumptions C17_striped_rings_once.

(* the busy spin lock admits one Add at a time into the sections that mutate the table *)
Theorem C17_striped_mutex : forall maxl elems idxs sched,
  (scnt crit (sths (srun (sinit maxl elems idxs) sched)) <= 1)%nat.
Proof. intros. eapply busy_mutex, Inv_run, Inv_init. Qed.
Print Assumptions C17_striped_mutex.

(* an element is recorded in the rings exactly once if its Add succeeded (or is about to return
   Success), and not at all if it failed, found its ring full, or is still running *)
Theorem C17_striped_recorded_iff_success : forall maxl elems idxs sched j t,
  NoDup elems -> length idxs = length elems ->
  let s := srun (sinit maxl elems idxs) sched in
  nth_error (sths s) j = Some t ->
  zcount (elem t) (concat (rings s)) = b2n (placed t).
Proof. exact recorded_iff_success. Qed.
Print Assumptions C17_striped_recorded_iff_success.

(* the table and the rings together: DrainTo visits the rings of the current table; when it takes from
   each of them everything recorded there (what C17's ring theorems establish for one ring at quiescence),
   it delivers, over the whole buffer, every element whose Add succeeded exactly once and nothing else —
   in every reachable state of the table, for every schedule of the Adds *)
Theorem C17_striped_drain_delivers_exactly_the_recorded : forall maxl elems idxs sched j t,
  NoDup elems -> length idxs = length elems ->
  let s := srun (sinit maxl elems idxs) sched in
  nth_error (sths s) j = Some t ->
  zcount (elem t) (drain_all s) = b2n (placed t).
Proof. exact drain_delivers_exactly_the_recorded. Qed.
Print Assumptions C17_striped_drain_delivers_exactly_the_recorded.

(* non-vacuity: two Adds on an empty buffer; the first creates the table, the second (probing the same
   cell) records into the same ring; both succeed and both elements are in the one visible ring *)
Example C17_striped_instance :
  let s := srun (sinit 4 [7; 8]%Z [5; 9]%nat)
                [(0,0); (0,0); (0,0); (0,0); (0,0); (1,0); (1,0); (1,0)]%nat in
  map spc_ (sths s) = [SDone SrSuccess; SDone SrSuccess] /\ rings s = [[7; 8]%Z] /\ visible_rings s = [0%nat].
Proof. vm_compute. repeat split. Qed.
