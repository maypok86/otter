(* C18 — Frequency estimates never under-count and admission follows them.
   Statements only; every proof is an instance of a lemma of theories/SketchProofs.v.
   [r] ranges over raw 64-bit key hashes: all keys x all hash seeds. *)
From Otter Require Import Base Sketch SketchProofs.

(* increment (unrolled) and frequency (looped) address the same four counters *)
Theorem C18_same_counters : forall bm bh, pos_unrolled bm bh = map (pos_loop bm bh) [0; 1; 2; 3].
Proof. exact same_counters. Qed.
Print Assumptions C18_same_counters.

(* ... all four distinct and inside the table, for every table length 8*2^k *)
Theorem C18_counters_in_bounds : forall (t : list Z) bm bh k i,
  0 <= k -> Z.of_nat (length t) = 8 * 2 ^ k -> bm = Z.ones k -> In i [0; 1; 2; 3] ->
  0 <= fst (pos_loop bm bh i) < Z.of_nat (length t) /\ 0 <= snd (pos_loop bm bh i).
Proof. exact pos_loop_valid. Qed.
Print Assumptions C18_counters_in_bounds.

(* within one sampling period (no aging step inside [rs]) the estimate of r is at least
   min 15 (estimate before + number of times r was recorded), whatever else was recorded *)
Theorem C18_no_undercount : forall s s' rs r,
  wf s -> inited s = true -> run_period s rs = Some s' ->
  Z.min 15 (frequency s r + occ r rs) <= frequency s' r.
Proof. exact no_undercount. Qed.
Print Assumptions C18_no_undercount.

Theorem C18_le_15 : forall s r, 0 <= frequency s r <= 15.
Proof. exact frequency_le_15. Qed.
Print Assumptions C18_le_15.

(* an aging step halves every estimate *)
Theorem C18_reset_halves : forall s r, wf s -> frequency (reset s) r = frequency s r / 2.
Proof. exact reset_halves. Qed.
Print Assumptions C18_reset_halves.

(* before frequency tracking is enabled every estimate is zero and recording is a no-op *)
Theorem C18_uninitialised_zero : forall s r, inited s = false -> frequency s r = 0 /\ increment s r = s.
Proof. intros s r H. split; [exact (frequency_uninitialised s r H) | exact (increment_uninitialised s r H)]. Qed.
Print Assumptions C18_uninitialised_zero.

(* RoundUpPowerOf264 is the least power of two >= x *)
Theorem C18_roundup : forall x, 1 < x <= two63 ->
  roundup64 x = 2 ^ Z.log2_up x /\ x <= roundup64 x /\ (forall k, 0 <= k -> x <= 2 ^ k -> roundup64 x <= 2 ^ k).
Proof. intros x H. split; [apply roundup64_spec; lia | exact (roundup64_least x H)]. Qed.
Print Assumptions C18_roundup.

(* ensureCapacity: any capacity (non-powers of two included) yields a zeroed, well-formed table of
   length max 8 (least power of two >= m); it is a no-op when the table is already large enough *)
Theorem C18_capacity : forall s m,
  (m <= Z.of_nat (length (tbl s)) -> ensure_capacity s m = s) /\
  (Z.of_nat (length (tbl s)) < m -> m <= two63 ->
     let s' := ensure_capacity s m in
     inited s' = true /\ ssize s' = 0 /\ Z.of_nat (length (tbl s')) = Z.max 8 (2 ^ Z.log2_up m) /\
     Forall (fun w => w = 0) (tbl s') /\ wf s').
Proof. intros s m. split; [exact (ensure_capacity_noop s m) | exact (ensure_capacity_grows s m)]. Qed.
Print Assumptions C18_capacity.

(* well-formedness is an invariant of every operation, so the hypotheses above are reachable *)
Theorem C18_wf_invariant : wf sketch0 /\
  (forall s r, wf s -> wf (increment s r)) /\ (forall s, wf s -> wf (reset s)) /\
  (forall s m, wf s -> m <= two63 -> wf (ensure_capacity s m)).
Proof. exact (conj sketch0_wf (conj increment_wf (conj reset_wf ensure_capacity_wf))). Qed.
Print Assumptions C18_wf_invariant.

(* admission: displaced only by a strictly greater estimate, apart from the random path *)
Theorem C18_admission : forall s rc rv rnd,
  (accept s rc rv rnd = true -> frequency s rc > frequency s rv \/ (frequency s rc >= 6 /\ Z.land rnd 127 = 0)) /\
  (frequency s rc > frequency s rv -> accept s rc rv rnd = true).
Proof. intros. split; [exact (accept_sound s rc rv rnd) | exact (accept_complete s rc rv rnd)]. Qed.
Print Assumptions C18_admission.

(* non-vacuity: a concrete initialised sketch meets the hypotheses of C18_no_undercount *)
Example C18_nonvacuous :
  let s := ensure_capacity sketch0 10 in
  inited s = true /\ run_period s [5; 7; 5; 5] <> None /\
  (match run_period s [5; 7; 5; 5] with Some s' => frequency s' 5 | None => 0 end) = 3.
Proof. vm_compute. repeat split; discriminate. Qed.
