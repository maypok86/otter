(* C15 — Concurrent table: nothing lost across resizes, weakly consistent iteration.
   Model: HashMap.v — an executable sequential model of the CLHT table (meta words, chains,
   first-free-slot insertion, grow / shrink / clear with per-table hash seeds).  The implementation is
   replayed on it call by call (results, how often the update function ran and what it saw, size,
   table length, per-bucket chain length and occupancy, exact iteration order), through growth to
   hundreds of buckets and back.

   Proved here (theories/HashMapBytes.v, HashMapRefine.v), for EVERY hash function (one per table
   generation, no assumption on it), every initial table length and every sequence of Get / Compute
   (keep, set, delete, for present and absent keys) / Clear:
     - C15_seq_refines_map: the table answers exactly like a finite map (a function from keys to
       optional values): every Get and the argument every update function sees are the map's, the
       function runs once, and the loop that retries after growing always terminates within its fuel;
     - C15_iteration_exact: in every reachable state iteration yields every binding of the map exactly
       once (no duplicate key, nothing lost, nothing stale) and the size counter equals their number;
     - C15_resize_keeps_everything: growing, shrinking (re-hashing every entry under the new table's
       seed into chains built by appendToBucket) keeps exactly the bindings; clearing leaves none.
   Underneath: the SWAR byte search has no false negatives and, restricted to the five slot bytes,
   visits marked slots in increasing order; setByte/getByte/broadcast byte algebra; a key is stored
   at most once, in the chain its hash selects, under a meta byte equal to its hash byte.
   Concurrency (HashMapConc.v, proofs in HashMapConcProofs.v): the protocol between Compute, resize and
   Get — root-bucket locks, the resize-in-progress and newer-table re-checks, the resizing flag, the copy
   of each bucket under its lock in any order, publication before release — for any number of threads
   and every schedule: C15_concurrent_table_is_the_map (nothing lost across resizes),
   C15_concurrent_update_atomic / _applied_exactly_once (the atomicity of Compute that C02 assumes),
   C15_concurrent_get_regular (a lock-free Get returns a binding current during the call),
   C15_concurrent_iteration_sound / _complete / _no_removed_entry (Range during resizes),
   C15_concurrent_no_deadlock.  There a
   table version is a key->binding store (the layout is the sequential theorems' subject) and a bucket's
   update, a bucket's copy and a Get's read of its key are one step each; the tbl engine replays the
   real table's hook-to-hook schedules on this model.  Clear under concurrency is checked by
   implementation oracles only. *)
From Otter Require Import Base HashMap HashMapFacts HashMapBytes HashMapRefine HashMapConc HashMapConcProofs HashMapConcLive HashMapConcSize HashMapConcLin.
From Coq Require Import Permutation.

Theorem C15_seq_refines_map : forall hashf n ops,
  1 <= n -> Z.of_nat (length ops) <= 2 ^ 63 ->
  mrun hashf (hmap_new n) ops = srun (fun _ => None) ops.
Proof.
  intros hashf n ops Hn Hl. destruct (rel_new hashf n Hn) as [HR Hsz].
  exact (proj1 (run_refines hashf ops _ _ 0 HR ltac:(lia) ltac:(lia))).
Qed.
Print Assumptions C15_seq_refines_map.

Theorem C15_iteration_exact : forall hashf n ops,
  1 <= n -> Z.of_nat (length ops) <= 2 ^ 63 ->
  let m := mfinal hashf (hmap_new n) ops in
  let s := sfinal (fun _ => None) ops in
  NoDup (map fst (hmap_range m)) /\ (forall k v, In (k, v) (hmap_range m) <-> s k = Some v) /\
  hsize m = Z.of_nat (length (hmap_range m)).
Proof.
  intros hashf n ops Hn Hl. destruct (rel_new hashf n Hn) as [HR Hsz].
  exact (rel_range hashf _ _ (proj2 (run_refines hashf ops _ _ 0 HR ltac:(lia) ltac:(lia)))).
Qed.
Print Assumptions C15_iteration_exact.

Theorem C15_resize_keeps_everything : forall hashf n ops h,
  1 <= n -> Z.of_nat (length ops) <= 2 ^ 63 ->
  let m := mfinal hashf (hmap_new n) ops in
  HInv hashf (hmap_resize hashf m h) /\
  Permutation (hmap_range (hmap_resize hashf m h)) (match h with Clear => [] | _ => hmap_range m end).
Proof.
  intros hashf n ops h Hn Hl. destruct (rel_new hashf n Hn) as [HR Hsz].
  apply resize_spec. exact (proj1 (proj2 (run_refines hashf ops _ _ 0 HR ltac:(lia) ltac:(lia)))).
Qed.
Print Assumptions C15_resize_keeps_everything.

(* one Compute in any state satisfying the invariant: the function sees the current binding, the
   table afterwards holds exactly the other bindings plus the function's result *)
Theorem C15_compute_exact : forall hashf m key f,
  HInv hashf m -> hsize m <= 2 ^ 63 -> final_post hashf m key f (hmap_compute hashf m key f).
Proof. exact compute_spec. Qed.
Print Assumptions C15_compute_exact.

Theorem C15_get_exact : forall hashf m key,
  HInv hashf m ->
  match hmap_get hashf m key with
  | Some v => In (key, v) (hmap_range m)
  | None => forall v, ~ In (key, v) (hmap_range m)
  end.
Proof. exact get_spec. Qed.
Print Assumptions C15_get_exact.


(* ---- the concurrency protocol (HashMapConc.v): any number of Computes and Gets, any schedule, any
   hash functions, tables growing and shrinking underneath (buckets copied in any order).  [spec] is the
   abstract map: only the update step changes it, to [upd spec k (f (spec k))]; [hist] lists its
   successive values. ---- *)

(* the linearization, stated without reference to how the ghosts are computed: [ulog] lists the threads
   in the order of their update steps; the published table is what one gets by applying their functions
   in that order, one after the other, to the empty map (each function to the binding the previous ones
   left); and a thread occurs in that list exactly as often as it has applied its function: once when
   its Compute is past its update, never before *)
Theorem C15_concurrent_linearization : forall hidx KU n0 ops sched, (1 <= n0)%nat ->
  let s := hrun hidx KU (hinit n0 ops) sched in
  (forall k, stores s (hcur s) k = replay (map (kf_of (hths s)) (ulog s)) k) /\
  (forall j t, nth_error (hths s) j = Some t -> count_occ Nat.eq_dec (ulog s) j = b2n (applied t)).
Proof. exact conc_linearization. Qed.
Print Assumptions C15_concurrent_linearization.

(* nothing is lost across resizes: at every moment the table m.table points to holds exactly the
   abstract map (a key inserted and not removed is there; a removed key is not) *)
Theorem C15_concurrent_table_is_the_map : forall hidx KU n0 ops sched, (1 <= n0)%nat ->
  let s := hrun hidx KU (hinit n0 ops) sched in forall k, stores s (hcur s) k = spec s k.
Proof. exact conc_table_is_spec. Qed.
Print Assumptions C15_concurrent_table_is_the_map.

(* an update function is applied atomically: the writer about to apply it holds the lock of the key's
   bucket in the CURRENT table and the binding it is about to be given is the abstract map's *)
Theorem C15_concurrent_update_atomic : forall hidx KU n0 ops sched j t, (1 <= n0)%nat ->
  let s := hrun hidx KU (hinit n0 ops) sched in
  nth_error (hths s) j = Some t -> hpc_ t = W4 ->
  hsnap t = hcur s /\ stores s (hsnap t) (hkey t) = spec s (hkey t) /\ lk s (hsnap t) (hbi t) = true.
Proof. exact conc_update_sees_current. Qed.
Print Assumptions C15_concurrent_update_atomic.

(* ... and exactly once per call, whatever retries the resizes forced: a thread has applied its function
   once when it is past its update step (or resizing after it), not at all before *)
Theorem C15_concurrent_applied_exactly_once : forall hidx KU n0 ops sched j t, (1 <= n0)%nat ->
  nth_error (hths (hrun hidx KU (hinit n0 ops) sched)) j = Some t -> happ t = b2n (applied t).
Proof. exact conc_applied_exactly_once. Qed.
Print Assumptions C15_concurrent_applied_exactly_once.

(* a lock-free Get returns the binding its key had in the abstract map at some moment between its
   table load and its return — never a binding older than the map current when it began *)
Theorem C15_concurrent_get_regular : forall hidx KU n0 ops sched j t, (1 <= n0)%nat ->
  let s := hrun hidx KU (hinit n0 ops) sched in
  nth_error (hths s) j = Some t -> hpc_ t = GDone ->
  (hst t - 1 <= hwit t < length (hist s))%nat /\ nth (hwit t) (hist s) dflt (hkey t) = hres t.
Proof. exact conc_read_regular. Qed.
Print Assumptions C15_concurrent_get_regular.

Theorem C15_concurrent_get_quiescent : forall hidx KU n0 ops sched j t, (1 <= n0)%nat ->
  let s := hrun hidx KU (hinit n0 ops) sched in
  nth_error (hths s) j = Some t -> hpc_ t = GDone -> hst t = length (hist s) -> hres t = spec s (hkey t).
Proof. exact conc_read_quiescent. Qed.
Print Assumptions C15_concurrent_get_quiescent.

(* iteration (Range): for every key, what a finished iteration yielded for it (a binding or nothing) is
   what the abstract map held for it at some moment between the iteration's table load and its end; so a
   key present during the whole iteration is yielded, a key removed before it began (and not re-inserted)
   is not, and a yielded binding is one the key had meanwhile.  (At most once per key: a key lives in one
   bucket of a table version and every bucket is read once — the sequential theorems' layout.) *)
Theorem C15_concurrent_iteration_sound : forall hidx KU n0 ops sched j t, (1 <= n0)%nat ->
  let s := hrun hidx KU (hinit n0 ops) sched in
  nth_error (hths s) j = Some t -> hpc_ t = IDone ->
  forall k, (hst t - 1 <= hwitf t k < length (hist s))%nat /\ nth (hwitf t k) (hist s) dflt k = hyield t k.
Proof. exact conc_iter_sound. Qed.
Print Assumptions C15_concurrent_iteration_sound.

Theorem C15_concurrent_iteration_complete : forall hidx KU n0 ops sched j t k, (1 <= n0)%nat ->
  let s := hrun hidx KU (hinit n0 ops) sched in
  nth_error (hths s) j = Some t -> hpc_ t = IDone ->
  (forall w, (hst t - 1 <= w < length (hist s))%nat -> nth w (hist s) dflt k <> None) -> hyield t k <> None.
Proof. exact conc_iter_complete. Qed.
Print Assumptions C15_concurrent_iteration_complete.

Theorem C15_concurrent_iteration_no_removed_entry : forall hidx KU n0 ops sched j t k, (1 <= n0)%nat ->
  let s := hrun hidx KU (hinit n0 ops) sched in
  nth_error (hths s) j = Some t -> hpc_ t = IDone ->
  (forall w, (hst t - 1 <= w < length (hist s))%nat -> nth w (hist s) dflt k = None) -> hyield t k = None.
Proof. exact conc_iter_no_ghost. Qed.
Print Assumptions C15_concurrent_iteration_no_removed_entry.

(* the reported size: the current table's counter plus what the writers that have updated it still owe
   it (a writer adds its +1 / -1 after releasing the bucket lock, to the table it updated; a resize starts
   the new table with the number of entries it copied) is the number of keys bound; so once every call
   has returned Size() is exact.  KU is any duplicate-free list containing the keys the Computes use. *)
Theorem C15_concurrent_size_accounted : forall hidx KU, NoDup KU -> forall n0 ops sched, (1 <= n0)%nat -> Forall (writes_in KU) ops ->
  let s := hrun hidx KU (hinit n0 ops) sched in
  (cnt s (hcur s) + zsum (owed s) (hths s))%Z = nb KU s (hcur s).
Proof. exact conc_size_accounted. Qed.
Print Assumptions C15_concurrent_size_accounted.

Theorem C15_concurrent_size_exact_when_quiescent : forall hidx KU, NoDup KU -> forall n0 ops sched, (1 <= n0)%nat -> Forall (writes_in KU) ops ->
  let s := hrun hidx KU (hinit n0 ops) sched in
  (forall j t, nth_error (hths s) j = Some t -> pending t = false) ->
  cnt s (hcur s) = nb KU s (hcur s).
Proof. exact conc_size_exact. Qed.
Print Assumptions C15_concurrent_size_exact_when_quiescent.

Theorem C15_concurrent_bound_keys_known : forall hidx KU, NoDup KU -> forall n0 ops sched g k, (1 <= n0)%nat -> Forall (writes_in KU) ops ->
  stores (hrun hidx KU (hinit n0 ops) sched) g k <> None -> In k KU.
Proof. exact conc_bound_keys_known. Qed.
Print Assumptions C15_concurrent_bound_keys_known.

(* no deadlock: in every reachable state, if no step of any thread with any input changes the state,
   every call has returned *)
Theorem C15_concurrent_no_deadlock : forall hidx KU n0 ops sched, (1 <= n0)%nat ->
  let s := hrun hidx KU (hinit n0 ops) sched in
  stuck hidx KU s -> forall i t, nth_error (hths s) i = Some t -> finished t.
Proof. exact conc_no_deadlock. Qed.
Print Assumptions C15_concurrent_no_deadlock.

(* bucket locks and the resizing flag are mutual exclusions *)
Theorem C15_concurrent_bucket_mutex : forall hidx KU n0 ops sched g b, (1 <= n0)%nat ->
  (hcnt (holder g b) (hths (hrun hidx KU (hinit n0 ops) sched)) <= 1)%nat.
Proof. exact conc_bucket_mutex. Qed.
Print Assumptions C15_concurrent_bucket_mutex.
Theorem C15_concurrent_resize_mutex : forall hidx KU n0 ops sched, (1 <= n0)%nat ->
  (hcnt resz (hths (hrun hidx KU (hinit n0 ops) sched)) <= 1)%nat.
Proof. exact conc_resize_mutex. Qed.
Print Assumptions C15_concurrent_resize_mutex.

(* a schedule in which a writer must grow the table before its insert, another writer holds a bucket
   the copy needs, a reader loaded the old table before the publication and reads it afterwards, and a
   delete shrinks the table again, while an iteration that loaded the first table reads it at the very
   end: three table versions, every call finishes, every function applied once, the reader's value is the
   one written during its call, the iteration yields what the first table held when it was retired, the
   final size counter is exact *)
Example C15_concurrent_instance :
  let hx := fun (g : nat) (k : Z) => (Z.to_nat k + g)%nat in
  let ops := [HCompute 1 (fun _ => Some 10); HCompute 2 (fun _ => Some 20); HGet 1;
              HCompute 1 (fun v => match v with Some x => Some (x + 1) | None => None end); HCompute 2 (fun _ => None); HRange] in
  let rep := fun (i n : nat) => repeat (i, 0%nat) n in
  let sched := rep 0%nat 8%nat ++ [(2, 0)]%nat ++ [(5, 0)]%nat ++ rep 1%nat 4%nat ++ [(1, 1)]%nat ++ rep 3%nat 4%nat ++ [(1, 0); (1, 0)]%nat ++
               rep 4%nat 3%nat ++ rep 3%nat 2%nat ++ [(1, 0); (1, 0); (1, 0)]%nat ++ [(2, 0)]%nat ++ rep 1%nat 9%nat ++
               rep 4%nat 10%nat ++ [(4, 1); (4, 0); (4, 0); (4, 1); (4, 0); (4, 0); (4, 0)]%nat ++ rep 3%nat 3%nat ++ rep 5%nat 3%nat in
  let fin := hrun hx [1; 2] (hinit 1 ops) sched in
  map hpc_ (hths fin) = [HDone; HDone; GDone; HDone; HDone; IDone] /\ lens fin = [1; 2; 1]%nat /\ hcur fin = 2%nat /\
  map (fun k => stores fin (hcur fin) k) [1; 2; 3] = [Some 11; None; None] /\ cnt fin (hcur fin) = 1 /\
  map hres (hths fin) = [None; None; Some 11; None; None; None] /\ map happ (hths fin) = [1; 1; 0; 1; 1; 0]%nat /\
  map hst (hths fin) = [0; 0; 2; 0; 0; 2]%nat /\ map hwit (hths fin) = [0; 0; 2; 0; 0; 0]%nat /\
  map (hyield (nth 5 (hths fin) (thread_of HRange))) [1; 2] = [Some 11; None].
Proof. vm_compute. repeat split. Qed.



(* markZeroBytes marks every zero byte of every 64-bit word: a slot whose meta byte equals the
   broadcast hash byte is always visited (false positives are filtered by the key comparison) *)
Theorem C15_swar_no_false_negative : forall w i,
  0 <= w < two64 -> 0 <= i < 8 -> (w / 2 ^ (8 * i)) mod 256 = 0 ->
  Z.testbit (markZeroBytes w) (8 * i + 7) = true.
Proof. intros w i _. apply markZeroBytes_zero_byte. Qed.
Print Assumptions C15_swar_no_false_negative.

Theorem C15_xor_matches_bytewise : forall a b i,
  0 <= i -> (Z.lxor a b / 2 ^ (8 * i)) mod 256 = Z.lxor ((a / 2 ^ (8 * i)) mod 256) ((b / 2 ^ (8 * i)) mod 256).
Proof. exact lxor_byte. Qed.
Print Assumptions C15_xor_matches_bytewise.

(* a concrete run through growth, collision chains, deletion and shrink: every binding is found,
   the size is exact, iteration yields each binding once *)
Example C15_instance :
  let hashf := fun (g k : Z) => (k * 2654435761 + g * 40503) mod 18446744073709551616 in
  let set m k := fst (hmap_compute hashf m k (fun _ => CSet (k + 1000))) in
  let del m k := fst (hmap_compute hashf m k (fun _ => CDel)) in
  let keys := map Z.of_nat (seq 0 200) in
  let m1 := fold_left set keys (hmap_new 32) in
  let m2 := fold_left del (map Z.of_nat (seq 0 198)) m1 in
  htlen m1 = 64 /\ hsize m1 = 200 /\ length (hmap_range m1) = 200%nat /\
  forallb (fun k => match hmap_get hashf m1 k with Some v => v =? k + 1000 | None => false end) keys = true /\
  hsize m2 = 2 /\ htlen m2 = 32 /\ hmap_get hashf m2 199 = Some 1199 /\ hmap_get hashf m2 5 = None.
Proof. vm_compute. repeat split. Qed.
