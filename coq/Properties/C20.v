(* C20 — Statistics count exactly what happened (ghost counters of the concrete model are placed
   exactly where the code calls the recorder). *)
From Otter Require Import Base Seq Spec SeqRefine SeqFacts Adder AdderProofs.

(* one lookup of a counting operation: hits + misses grows by exactly one; it is a hit exactly
   when an unexpired entry was found; loads and evictions untouched *)
Theorem C20_lookup : forall c s k now,
  lookups (fst (get_node c s k now)) = lookups s + 1 /\
  loads (fst (get_node c s k now)) = loads s /\
  evictions (cst (fst (get_node c s k now))) = evictions (cst s) /\
  (hits (cst (fst (get_node c s k now))) = hits (cst s) + 1 <->
   exists n, lookup k (cmap s) = Some n /\ has_expired c n now = false).
Proof. exact get_node_counts. Qed.
Print Assumptions C20_lookup.

(* one loader invocation: successes + failures grows by exactly one; not-found counts as a
   success, error and panic as failures; lookups untouched *)
Theorem C20_load : forall c s k old oc ir now,
  loads (fst (fst (run_load c s k old oc ir now))) = loads s + 1 /\
  lookups (fst (fst (run_load c s k old oc ir now))) = lookups s /\
  evictions (cst (fst (fst (run_load c s k old oc ir now)))) = evictions (cst s) /\
  (lfail (cst (fst (fst (run_load c s k old oc ir now)))) = lfail (cst s) + 1 <-> outcome_failed oc = true).
Proof. exact run_load_counts. Qed.
Print Assumptions C20_load.

(* quiet reads, explicit refresh submission, SetIfAbsent, Invalidate, deadline setters and
   iteration change no counter *)
Theorem C20_quiet : forall c s k v d ks now,
  cst (fst (step c s (OGetEntryQuietly k now))) = cst s /\
  cst (fst (step c s (ORefresh k now))) = cst s /\
  cst (fst (step c s (OBulkRefresh ks now))) = cst s /\
  cst (fst (step c s (OSetIfAbsent k v now))) = cst s /\
  cst (fst (step c s (OSet k v now))) = cst s /\
  cst (fst (step c s (OInvalidate k now))) = cst s /\
  cst (fst (step c s (OSetExpiresAfter k d now))) = cst s /\
  cst (fst (step c s (OSetRefreshableAfter k d now))) = cst s /\
  cst (fst (step c s (OIter now))) = cst s.
Proof.
  intros c s k v d ks now. cbn [step fst].
  split; [reflexivity|]. split.
  { unfold do_refresh. destruct (negb (with_refr c)); reflexivity. }
  split.
  { unfold do_bulk_refresh. destruct (negb (with_refr c)); reflexivity. }
  split.
  { unfold do_set. destruct (true && _).
    - destruct (lookup k (cmap s)); reflexivity.
    - destruct (atomic_set c k v (lookup k (cmap s)) NoCall now). reflexivity. }
  split.
  { unfold do_set. cbn [andb]. destruct (atomic_set c k v (lookup k (cmap s)) NoCall now). reflexivity. }
  split; [reflexivity|]. split.
  { unfold do_set_expires_after. destruct (negb (with_exp c) || (d <=? 0)); [reflexivity|].
    destruct (lookup k (cmap s)) as [n|]; [|reflexivity]. destruct (has_expired c n now); reflexivity. }
  split; [|reflexivity].
  unfold do_set_refreshable_after. destruct (negb (with_refr c) || (d <=? 0)); [reflexivity|].
  destruct (lookup k (cmap s)) as [n|]; [|reflexivity]. destruct (negb _); reflexivity.
Qed.
Print Assumptions C20_quiet.

(* evictions: counted exactly at the automatic removals (Overflow and Expiration), with the
   removed entry's weight; a rejected removal counts nothing *)
Theorem C20_evictions : forall c s k v cs now,
  let s' := fst (step c s (OAuto k v cs now)) in
  (r_ret (snd (step c s (OAuto k v cs now))) = RNone ->
     evictions (cst s') = evictions (cst s) + 1 /\
     exists n, lookup k (cmap s) = Some n /\ evweight (cst s') = evweight (cst s) + nweight n) /\
  (r_ret (snd (step c s (OAuto k v cs now))) <> RNone -> cst s' = cst s) /\
  lookups s' = lookups s /\ loads s' = loads s.
Proof.
  intros c s k v cs now. cbn [step]. unfold do_auto, lookups, loads.
  destruct (lookup k (cmap s)) as [n|].
  - destruct ((nval n =? v) && _); cbn.
    + split; [intros _; split; [reflexivity|eexists; split; reflexivity]|]. split; [intros H; exfalso; apply H; reflexivity|]. auto.
    + split; [intros H; discriminate H|]. auto.
  - cbn. split; [intros H; discriminate H|]. auto.
Qed.
Print Assumptions C20_evictions.

(* [b]: whether this compute records statistics *)
Lemma do_compute_lookups c s k f now b :
  lookups (fst (do_compute c s k f now b)) = lookups s + (if b then 1 else 0) \/
  (r_ret (snd (do_compute c s k f now b)) = RPanicked /\ lookups (fst (do_compute c s k f now b)) = lookups s).
Proof.
  unfold do_compute, lookups.
  destruct (f _ _) as [|v []]; try (right; split; reflexivity); left;
    try destruct (atomic_set c k v (lookup k (cmap s)) NoCall now) as [nn evs];
    (destruct (lookup k (cmap s)) as [n0|]; [destruct (has_expired c n0 now)|]); destruct b; sts; lia.
Qed.

(* the two-phase computes count once (in their read phase) and Compute counts once *)
Theorem C20_compute_counts_once : forall c s k f now,
  lookups (fst (do_compute c s k f now true)) = lookups s + 1 \/
  (exists r, snd (do_compute c s k f now true) = r /\ r_ret r = RPanicked /\ lookups (fst (do_compute c s k f now true)) = lookups s).
Proof.
  intros c s k f now. destruct (do_compute_lookups c s k f now true) as [H|H]; [left; exact H|right; eauto].
Qed.
Print Assumptions C20_compute_counts_once.

Theorem C20_compute_phase2_silent : forall c s k f now,
  lookups (fst (do_compute c s k f now false)) = lookups s.
Proof.
  intros c s k f now. destruct (do_compute_lookups c s k f now false) as [H|[_ H]]; rewrite H; lia.
Qed.
Print Assumptions C20_compute_phase2_silent.

Example C20_nonvacuous :
  let c := mkCfg false false false false (fun _ _ => 1) (fun _ _ c => c) (fun _ _ _ c => c) (fun _ _ c => c)
                 (fun _ _ c => c) (fun _ _ _ c => c) (fun _ _ _ c => c) (fun _ _ c => c) in
  let s := fst (run c cstate0 [OSet 1 11 0; OGetIfPresent 1 0; OGetIfPresent 2 0; OGet 2 (LError 5) 0 0;
                               OBulkGet [1; 2; 2; 3] (BMap [(2, 7)]) 0 0]) in
  (hits (cst s), misses (cst s), lsucc (cst s), lfail (cst s)) = (2, 4, 1, 1).
Proof. vm_compute. reflexivity. Qed.

(* the striped counter behind every statistic (internal/xsync/adder.go), small-step model, any
   number of threads, all schedules, every choice of probe indices *)

(* once no Add is in flight the stripes sum (mod 2^64) to the deltas of all Adds invoked, each
   applied exactly once: no increment lost to a failed CAS, none applied twice *)
Theorem C20_adder_exact_when_quiescent : forall n k sch,
  (0 < n)%nat ->
  let a := arun sch (adder_init n k) in
  quiescent a ->
  wrapu (sumZ (cells a)) = wrapu (sumZ (deltas (started a))) /\
  length (applied a) = length (started a) /\
  sumZ (deltas (applied a)) = sumZ (deltas (started a)).
Proof. intros n k sch Hn. apply AInv_quiescent, adder_inv, adder_init_inv, Hn. Qed.
Print Assumptions C20_adder_exact_when_quiescent.

(* at every moment: stripes = applied deltas; invoked = applied + in flight (sums and counts) *)
Theorem C20_adder_accounting : forall n k sch,
  (0 < n)%nat -> AInv (arun sch (adder_init n k)).
Proof. intros n k sch Hn. apply adder_inv, adder_init_inv, Hn. Qed.
Print Assumptions C20_adder_accounting.

(* a snapshot (Value) that overlaps Adds returns something between the total when it was invoked and
   the total when it returned; totals below 2^64, non-negative deltas (what stats.Counter does) *)
Theorem C20_snapshot_bounds : forall n k sch t v st,
  (0 < n)%nat ->
  let a := arun sch (adder_init n k) in
  NoWrap a -> nth t (aths a) TIdle = TVal v st ->
  sumZ st <= v <= sumZ (cells a).
Proof.
  intros n k sch t v st Hn a HN E. apply (scan_bounds a t v st); [|exact E].
  apply adder_minv; [apply adder_init_minv, Hn|exact HN].
Qed.
Print Assumptions C20_snapshot_bounds.

(* counters never decrease: a snapshot invoked after another one returned is not smaller, whatever
   Adds and snapshots overlap either of them *)
Theorem C20_counters_never_decrease : forall n k sch1 sch2 sch3 t1 t2 v1 st1 v2 st2,
  (0 < n)%nat ->
  let a1 := arun sch1 (adder_init n k) in
  let a2 := arun sch2 a1 in
  let a3 := astep a2 (t2, IScan) in
  let a4 := arun sch3 a3 in
  NoWrap a4 ->
  nth t1 (aths a1) TIdle = TVal v1 st1 ->
  (t2 < length (aths a2))%nat -> is_running (nth t2 (aths a2) TIdle) = false ->
  no_restart t2 sch3 ->
  nth t2 (aths a4) TIdle = TVal v2 st2 ->
  v1 <= v2.
Proof.
  intros n k sch1 sch2 sch3 t1 t2 v1 st1 v2 st2 Hn a1 a2 a3 a4 HN E1 Lt Hr _.
  apply (value_never_decreases a1 sch2 sch3 t1 t2 v1 st1 v2 st2); try assumption.
  apply adder_minv; [apply adder_init_minv, Hn|].
  exact (NoWrap_run sch2 a1 (NoWrap_step a2 _ (NoWrap_run sch3 a3 HN))).
Qed.
Print Assumptions C20_counters_never_decrease.

Example C20_adder_nonvacuous :
  cells adder_example_run = [5; 7] /\ nth 2 (aths adder_example_run) TIdle = TVal 7 [0; 0] /\
  deltas (started adder_example_run) = [5; 7] /\
  forallb (fun x => negb (is_running x)) (aths adder_example_run) = true.
Proof. exact adder_example. Qed.
