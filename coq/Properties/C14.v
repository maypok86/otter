(* C14 — Maintenance is never stranded: no lost wake-up after a write.
   Model: Drain.v — the drain-status protocol with the default executor at the granularity of single
   atomic accesses (loads, stores, CAS, TryLock/Lock/Unlock, one buffer pop), every executor
   submission being a new task thread.

   Proved here for ANY number of writers, readers and explicit CleanUp callers, every task they spawn, and
   EVERY schedule (theories/DrainInv.v): C14_no_stranding_any_population — when nothing can move any
   more, every thread has finished, the write buffer is empty, the drain status is idle and the
   eviction lock is free.  The proof is an inductive invariant over counts of threads per program
   counter (C14_invariant): the lock is held by exactly one owner (a spawner owns it until it or its
   task takes the hand-off token), the status is "processing" while an owner is between its status
   store and its release, a "processing" status has a thread that will finish it, a "required"
   status has a thread that will act on it (a writer that gives up at TryLock does so only while
   the owner is one of them), and every buffered event is covered: by a pending drain, by a
   "required" / "processing-to-required" status, or by its producer still being in
   scheduleAfterWrite.  Every step of every thread preserves it (one case per program counter
   and branch, linear arithmetic over nine class counts), so no bound on the population is involved.
   The EXHAUSTIVE theorems for small populations (closed reachable sets computed by
   vm_compute, DrainFast.v) are an independent cross-check of the same statement; with the
   writer's retry after a failed CAS removed from the model they evaluate to false.
   The model is tied to the code by the "sched" engine, which executes the real cache in macro steps
   (hook point to hook point) and compares every macro step with DrainMacro.macro_step;
   C14_macro_steps_are_runs shows those macro steps are runs of the small-step model.
   Not proved: that every schedule is finite (fair termination); the statement is about the
   configurations in which nothing can move. *)
From stdpp Require Import gmap.
From Otter Require Import Drain DrainProofs DrainBounded DrainMacro DrainInv DrainF17.

(* soundness of the exploration: a closed set containing the initial configuration contains every
   configuration reachable under every schedule *)
Theorem C14_exploration_sound : forall V s0,
  s0 ∈ V -> closed V = true -> all_terminals_drained V = true ->
  forall s, reachable s0 s -> terminal s = true -> drained s = true.
Proof. exact terminals_drained. Qed.
Print Assumptions C14_exploration_sound.

(* any number of writers (w) and explicit CleanUp callers (c), every schedule *)
Theorem C14_no_stranding_any_population : forall w c sched,
  let s := run_sched (dinit w c) sched in terminal s = true -> drained s = true.
Proof. exact drained_any_population. Qed.
Print Assumptions C14_no_stranding_any_population.

(* ... and any number of READERS besides them (afterRead: a reader whose read was buffered schedules a drain
   only when it sees the status "required"; one that found the read buffer full also when it sees "idle") *)
Theorem C14_no_stranding_with_readers : forall w c rd rf sched,
  let s := run_sched (dinitR w c rd rf) sched in terminal s = true -> drained s = true.
Proof. exact drained_any_population_with_readers. Qed.
Print Assumptions C14_no_stranding_with_readers.

(* ... and any number of callers of the OTHER operations that take the eviction lock: GetMaximum / WeightedSize
   (g: Lock, maintenance only if the status is "required", Unlock, rescheduleCleanUpIfIncomplete) and
   InvalidateAll (iv: Lock, its own loop over the write buffer without touching the status, Unlock,
   rescheduleCleanUpIfIncomplete); SetMaximum and the Hottest / Coldest views run the CleanUp caller's
   program (Lock, maintenance, Unlock, reschedule) and are the c of the statement.  A writer that finds
   the lock held by one of them gives up at TryLock; the statement holds because each of them looks at
   the status again after unlocking — without that step the invariant's clause "a required status has a
   thread that will act on it" fails (this is how F14 and F17 strand maintenance in the code) *)
Theorem C14_no_stranding_with_lock_holders : forall w c rd rf g iv sched,
  let s := run_sched (dinitA w c rd rf g iv) sched in terminal s = true -> drained s = true.
Proof. exact drained_any_population_with_lock_holders. Qed.
Print Assumptions C14_no_stranding_with_lock_holders.

(* ... and any number of writers that find the write buffer FULL (afterWriteTask): every refused TryPush is
   followed by a scheduleDrainBuffers call, and then the event is either accepted (the ordinary writer from
   there on) or, the retries exhausted, the writer runs the maintenance itself (performCleanUp: Lock,
   maintenance with its own event applied directly, Unlock, rescheduleCleanUpIfIncomplete).  Each element of
   fs says how many refusals one such writer meets and which way it ends; the scheduleDrainBuffers calls are
   helper threads, which the writer's goroutine runs to their end before it tries again — one of the schedules
   quantified over, so the model allows at least what the code does *)
Theorem C14_no_stranding_with_caller_runs_fallback : forall w c rd rf g iv fs sched,
  let s := run_sched (dinitF w c rd rf g iv fs) sched in terminal s = true -> drained s = true.
Proof. exact drained_any_population_with_fallback. Qed.
Print Assumptions C14_no_stranding_with_caller_runs_fallback.

(* non-vacuity: one ordinary writer, one CleanUp caller and two writers meeting a full buffer (three refusals
   then accepted; two refusals then caller-runs) under a round-robin schedule end drained, all threads done *)
Example C14_fallback_nonvacuous :
  let s := run_sched (dinitF 1 1 0 0 0 0 [8; 5]) (concat (repeat (seq 0 16) 60)) in
  terminal s = true /\ drained s = true /\ length (ths_of s) >= 9.
Proof. vm_compute. repeat split; repeat constructor. Qed.

(* the model is sensitive to the defect the code had (F17; F14 was the same for the views): an InvalidateAll
   caller that does not look at the status again after unlocking strands a concurrent write *)
Theorem C14_sensitive_to_F17 :
  let s := run_f17 f17_init f17_sched in
  terminal_f17 s = true /\ all_done s = true /\ drained s = false /\ ds_of s = 1 /\ wb_of s = 1.
Proof. exact f17_strands_without_the_reschedule. Qed.

(* the invariant behind it holds in every reachable configuration: in particular the eviction lock
   has exactly one owner when held and none when free, and a status of "processing" or "required"
   always has a thread that will act on it *)
Theorem C14_invariant : forall w c s, reachable (dinit w c) s -> CInv s.
Proof. exact CInv_reachable. Qed.
Print Assumptions C14_invariant.

(* the units in which the correspondence engine executes the code are sequences of small steps of one
   thread: every configuration it visits is reachable in the small-step model *)
Theorem C14_macro_steps_are_runs : forall s0 s i, reachable s0 s -> reachable s0 (macro_step s i).
Proof. exact macro_step_reachable. Qed.
Print Assumptions C14_macro_steps_are_runs.

(* one writer: under every schedule, when nothing can move any more, every thread has finished,
   the write buffer is empty, the drain status is idle and the eviction lock is free *)
Theorem C14_no_stranding_1_writer : forall sched,
  let s := run_sched (dinit 1 0) sched in terminal s = true -> drained s = true.
Proof. exact drained_1_writer. Qed.
Print Assumptions C14_no_stranding_1_writer.

(* two concurrent writers (a write arriving while the other's maintenance is running is either
   processed by that run or causes another run — otherwise a terminal configuration with a non-empty
   buffer or a non-idle status would be reachable) *)
Theorem C14_no_stranding_2_writers : forall sched,
  let s := run_sched (dinit 2 0) sched in terminal s = true -> drained s = true.
Proof. exact drained_2_writers. Qed.
Print Assumptions C14_no_stranding_2_writers.

(* one writer racing with an explicit CleanUp caller (Lock, maintenance, Unlock, reschedule) *)
Theorem C14_no_stranding_1_writer_1_cleanup : forall sched,
  let s := run_sched (dinit 1 1) sched in terminal s = true -> drained s = true.
Proof. exact drained_1_writer_1_cleanup. Qed.
Print Assumptions C14_no_stranding_1_writer_1_cleanup.

Example C14_nonvacuous :
  (* a schedule in which the second writer's push lands while the first writer's task is draining *)
  let s := run_sched (dinit 2 0) ([0;0;0;0;0;0;0;0;0;0;0;0; 2;2;2; 1;1;1;1;1;1;1;1; 2;2;2;2;2;2;2;2;2;2;2;2;2;2;2;2] ++ repeat 3 30 ++ repeat 1 10 ++ repeat 2 10 ++ repeat 4 30)%nat in
  terminal s = true /\ drained s = true.
Proof. vm_compute. split; reflexivity. Qed.
