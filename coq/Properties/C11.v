(* C11 — Refresh serves the old value and swaps atomically or not at all (sequential part;
   the in-flight / dedup part is the protocol model of C08/C09). *)
From Otter Require Import Base Seq Spec SeqRefine SeqFacts.

(* a read of a live entry returns the cached value; it hands exactly one reload carrying that
   value to the executor iff the refresh time has passed, and nothing otherwise *)
Theorem C11_read_serves_old : forall c s k oc n now,
  lookup k (cmap s) = Some n -> has_expired c n now = false ->
  let r := do_get c s k oc now now in
  r_ret (snd r) = RLoad (nval n) 0 /\ r_cb (snd r) = [] /\ r_events (snd r) = [] /\
  r_spawn (snd r) = (if is_fresh c n now then [] else [SpRefresh k (Some (nval n))]).
Proof. exact get_hit. Qed.
Print Assumptions C11_read_serves_old.

(* failed reload: value, weight and expiration deadline untouched *)
Theorem C11_failure_keeps_entry : forall c s k v n now,
  lookup k (cmap s) = Some n ->
  exists n', lookup k (cmap (fst (finish_call c s k (LError v) true now))) = Some n' /\
             nval n' = nval n /\ nexp n' = nexp n /\ nweight n' = nweight n.
Proof. exact reload_failure_keeps. Qed.
Print Assumptions C11_failure_keeps_entry.

(* not-found reload removes the entry *)
Theorem C11_notfound_removes : forall c s k now,
  lookup k (cmap (fst (finish_call c s k LNotFound true now))) = None.
Proof. intros. apply finish_call_notfound_removes. Qed.
Print Assumptions C11_notfound_removes.

(* successful reload replaces the value (in one step of the table: the old value is reported replaced) *)
Theorem C11_success_replaces : forall c s k v n now,
  lookup k (cmap s) = Some n -> has_expired c n now = false ->
  exists n', lookup k (cmap (fst (finish_call c s k (LValue v) true now))) = Some n' /\ nval n' = v /\
  snd (finish_call c s k (LValue v) true now) = [mkEvent k (nval n) CReplacement].
Proof.
  intros c s k v n now L X. unfold finish_call. rewrite L.
  pose proof (atomic_set_val c k v (Some n) (Call true false false) now) as V.
  destruct (atomic_set c k v (Some n) (Call true false false) now) as [nn evs] eqn:EA.
  cbn [fst snd] in *. unfold upd_map, put; cbn [cmap lookup fst]. rewrite Z.eqb_refl. exists nn.
  split; [reflexivity|]. split; [assumption|].
  unfold atomic_set in EA. injection EA as _ <-. unfold get_cause. rewrite X. reflexivity.
Qed.
Print Assumptions C11_success_replaces.

(* no channel when refreshing is not configured; a channel and exactly one task otherwise *)
Theorem C11_refresh_channel : forall c s k now,
  (with_refr c = false -> r_ret (snd (do_refresh c s k now)) = RChan false /\ r_spawn (snd (do_refresh c s k now)) = []) /\
  (with_refr c = true -> r_ret (snd (do_refresh c s k now)) = RChan true /\ length (r_spawn (snd (do_refresh c s k now))) = 1%nat).
Proof.
  intros c s k now. unfold do_refresh. split; intros H; rewrite H; cbn; auto.
Qed.
Print Assumptions C11_refresh_channel.

Example C11_nonvacuous :
  let c := mkCfg false true false false (fun _ _ => 1) (fun _ _ c => c) (fun _ _ _ c => c) (fun _ _ c => c)
                 (fun _ _ _ => 50) (fun _ _ _ _ => 50) (fun _ _ _ _ => 50) (fun _ _ c => c) in
  let s := fst (run c cstate0 [OSet 1 11 1000]) in
  r_ret (snd (step c s (OGet 1 LNotFound 1049 1049))) = RLoad 11 0 /\ r_spawn (snd (step c s (OGet 1 LNotFound 1049 1049))) = [] /\
  r_ret (snd (step c s (OGet 1 LNotFound 1050 1050))) = RLoad 11 0 /\
  r_spawn (snd (step c s (OGet 1 LNotFound 1050 1050))) = [SpRefresh 1 (Some 11)].
Proof. vm_compute. repeat split. Qed.
