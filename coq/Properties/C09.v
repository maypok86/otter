(* C09 — A load never overwrites a newer write or invalidation.  Model: Load.v (see C08). *)
From Otter Require Import Base Load LoadProofs.

(* a call stays registered only as long as no write / invalidation / eviction of its key happened
   since it was created: the registered calls are exactly the pending, unsuperseded ones *)
Theorem C09_registered_iff_unsuperseded : forall es k id,
  let s := fst (lrun lstate0 es) in
  alookup k (ltable s) = Some id ->
  exists c, In c (lcalls s) /\ cid c = id /\ ckey c = k /\ cdone c = None /\ csuperseded c = false.
Proof. intros es k id s. apply v_table_sound, linv_reachable. Qed.
Print Assumptions C09_registered_iff_unsuperseded.

(* a loaded value is installed only by a call that was never superseded *)
Theorem C09_install_only_if_unsuperseded : forall es c,
  let s := fst (lrun lstate0 es) in In c (lcalls s) -> cinstalled c = true -> csuperseded c = false.
Proof. intros es c s Hc Hi. apply (v_no_stale_install s (linv_reachable es) c Hc Hi). Qed.
Print Assumptions C09_install_only_if_unsuperseded.

(* when a superseded load finishes — with any outcome — the table is left exactly as the explicit
   writes and invalidations made it (its waiters still get its result: C08_no_stuck_waiter) *)
Theorem C09_superseded_load_changes_nothing : forall es id oc c,
  let s := fst (lrun lstate0 es) in
  In c (lcalls s) -> cid c = id -> cdone c = None -> csuperseded c = true ->
  lmap (fst (lstep s (LFinish id oc))) = lmap s.
Proof. intros es id oc c s. apply superseded_finish_keeps_map, linv_reachable. Qed.
Print Assumptions C09_superseded_load_changes_nothing.

(* an explicit write / invalidation always takes effect and unregisters the key's call *)
Theorem C09_write_wins : forall s k v,
  alookup k (lmap (fst (lstep s (LWrite k v)))) = Some v /\
  alookup k (lmap (fst (lstep s (LInvalidate k)))) = None.
Proof.
  intros s k v. cbn [lstep fst lmap]. split.
  - rewrite alookup_aput. rewrite Z.eqb_refl. reflexivity.
  - apply alookup_aremove_same.
Qed.
Print Assumptions C09_write_wins.

Example C09_nonvacuous :
  let run es := alookup 7 (lmap (fst (lrun lstate0 es))) in
  (* write while the load runs: the write stays *)
  run [LStart 1 7 false; LWrite 7 50; LFinish 0 (OValue 60)] = Some 50 /\
  (* invalidation while the load runs: nothing is resurrected *)
  run [LWrite 7 40; LStart 1 7 true; LInvalidate 7; LFinish 0 (OValue 60)] = None /\
  (* no write in between: the loaded value is installed *)
  run [LStart 1 7 false; LFinish 0 (OValue 60)] = Some 60 /\
  (* write before the load starts: the load is newer and wins *)
  run [LWrite 7 50; LStart 1 7 true; LFinish 0 (OValue 60)] = Some 60.
Proof. vm_compute. repeat split. Qed.
